(* C05 - Compilation is a pure function of source, include files and options.
   Property theorems only. Model: Sys/History.v, the process-global state (fresh-name counter, per-thread
   integer-conversion mode with its restoring guard) as a state machine over arbitrary compile histories
   (nested compilations, failing compilations, foreign code that leaves the mode flipped).
   Proved for all histories: a compilation restores the mode it found (also when it fails), every
   compilation body starts under the mode of its own dialect regardless of what ran before, and the
   counter only grows. That the emitted code does not depend on the counter's starting value, on hash
   seeds or on the thread is runtime behaviour this model cannot exhibit: it is explored by the check
   (same source compiled under many counter values, after other and failing compilations, with the mode
   flipped, in fresh processes and from concurrent threads; bytes and user-visible symbols compared). *)
From CV Require Import Base.Prelude Sys.History Sys.HistoryProofs.

Theorem C05_compile_restores_mode : forall fx body fails s obs,
  mode (fst (run_act (Compile fx body fails) s obs)) = mode s.
Proof. exact compile_restores_mode. Qed.

Theorem C05_compile_sees_own_dialect_mode : forall h s,
  forall o, In o (snd (run_hist h s [])) -> fst o = snd o.
Proof.
  intros h s. apply (run_hist_inv (fun _ obs => forall o, In o obs -> fst o = snd o)).
  - apply Forall_forall. intros a _ s0. apply compile_sees_own_mode.
  - intros o [].
Qed.

Theorem C05_counter_only_grows : forall a s obs, (ctr s <= ctr (fst (run_act a s obs)))%nat.
Proof. exact counter_monotone. Qed.

(* non-vacuity: a failing nested compilation of another dialect inside a compilation, after a leaked flip *)
Example C05_example :
  let h := [SetMode false; Compile true [Gensym; Compile false [Gensym] true; Gensym] false; Gensym] in
  run_hist h (mkG 7 true) [] = (mkG 11 false, [(false, false); (true, true)]).
Proof. vm_compute. reflexivity. Qed.
