(* C01 - Compiled modern Chialisp computes what the source means.
   Property theorems only. The whole-compiler statement (C01_full, below as text) is NOT proved: the
   compiler (frontend, rename, inlining, lambda desugaring, macro expansion through the stepper, CSE,
   codegen) is not modelled as a whole. Proved here are the mechanisms every compiled variable reference
   rests on, for all parameter trees, names and argument values:
     - the environment path codegen computes for a parameter (create_name_lookup_, including nested and
       dotted parameter lists and (@ name pattern) captures) reaches, in any argument value of matching
       shape, exactly the component bound to that name;
     - a bound name always has a path, independent of the argument value.
   The whole-compiler statement is decided by execution: generated programs in six dialects, with and
   without optimisation, are compiled by the real compiler, run with clvmr and compared with the value of
   the reference interpreter (lib/srcgen.py).
   C01_full : for every program p of the generated surface, dialect d, arguments a and value v:
              source_eval p a = v -> compile d p = Ok c -> clvmr_eval c a = v. *)
From CV Require Import Base.Prelude Base.Val Clvm.Path Lang.Lookup.

Theorem C01_parameter_path_correct_partial : forall p name path env v,
  lookup p name = Some path -> select p name env = Some v -> traverse_pos path env = Ok v.
Proof. exact lookup_correct. Qed.

Theorem C01_bound_name_has_path_partial : forall p name env v,
  select p name env = Some v -> exists path, lookup p name = Some path.
Proof. exact lookup_total. Qed.

(* non-vacuity: (A (@ W (B C)) . D) : the path of C is 0b10101 = 21 read lsb first: rest, first, rest, first, then the sentinel *)
Example C01_example :
  let p := PCons (PName [65]) (PCons (PAt [87] (PCons (PName [66]) (PCons (PName [67]) POther))) (PName [68])) in
  lookup p [67] = Some 21%positive /\ lookup p [87] = Some 5%positive /\ lookup p [68] = Some 7%positive /\
  select p [67] (Cons (Atom [1]) (Cons (Cons (Atom [2]) (Cons (Atom [3]) (Atom []))) (Atom [4]))) = Some (Atom [3]).
Proof. vm_compute. repeat split. Qed.
