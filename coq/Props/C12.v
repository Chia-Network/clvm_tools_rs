(* C12 - The debugger's trace is a faithful account of the real execution.
   Property theorems only. Model: Step/Cldb.v (CldbRun::step as a row machine) over Step/Stepper.v.
   Proved for every program, environment and operator oracle: every trace row that reports an operator
   other than apply and if together with its arguments and a value is true (that operator applied to
   those arguments gives that value), and a Final entry carries exactly the value the stepping machine
   reaches (which is the consensus value by C06's theorem). The row for the if operator is excluded:
   it is the open known finding D8 (the code reports the value of a later result there). Row numbering,
   the hierarchical view and hex = source are decided by execution. *)
From CV Require Import Base.Prelude Base.Val Clvm.Ops Step.Stepper Step.Cldb Step.CldbProofs.

Theorem C12_rows_true_partial : forall opf fuel p e n h args v,
  In (ROp n h args v) (trace opf fuel (cldb_start p e)) -> not_a_i h = true ->
  op_meaning opf h args = Some v.
Proof. intros opf fuel p e. apply rows_true. apply pending_ok_start. Qed.

Theorem C12_final_is_machine_result : forall opf fuel p e v,
  In (RFinal v) (trace opf fuel (cldb_start p e)) -> exists m, iter opf m (start p e) = Some (SDone v).
Proof. intros opf fuel p e v H. apply (final_is_machine_result opf fuel (cldb_start p e) v H). Qed.

Example C12_example :
  trace opf_exec 100 (cldb_start (Cons (Atom [16]) (Cons (Cons (Atom [1]) (Atom [5])) (Cons (Atom [2]) nilv))) (Cons (Atom [7]) nilv))
  = [ROp 0 [16] (Cons (Atom [5]) (Cons (Atom [7]) nilv)) (Atom [12]); RFinal (Atom [12])].
Proof. vm_compute. reflexivity. Qed.
