(* C16 - The REPL / partial evaluator only ever returns what the compiled program would.
   Property theorems only, over the evaluator model of Lang/PEval.v (first-order core: constants, program
   and function parameters, strict primitives through the operator oracle, the lazy conditional, function
   calls expanded by substituting argument expressions, a depth limit that is an error).
   The model is run against Repl::process_line on the programs of the build matrix that lie in this core
   (checks/c16.py); programs outside it (macros with quasi-quotation, strings, lambdas with captures) are
   decided by execution only. *)
From CV Require Import Base.Prelude Base.Val Lang.PEval Lang.PEvalProofs.

(* whenever the expression has a value (as compiled code computes it, call by value), the residue the
   evaluator returns has that same value, for every argument list consistent with what the evaluator knew *)
Theorem C16_residual_agrees_with_program :
  forall opf funs fs known rho, consistent known rho ->
  forall e e' fv v,
  shrink opf funs fs known [] e = Some e' -> seval opf funs fv rho [] e = Some v ->
  exists F, seval opf funs F rho [] e' = Some v.
Proof. intros opf funs fs known rho Hk e e' fv v. exact (shrink_sound opf funs fs known rho Hk [] e e' [] fv v (Forall2_nil _)). Qed.

(* a constant returned by the evaluator is the value of the program (never a different one) *)
Theorem C16_constant_is_the_value :
  forall opf funs fs known rho e c fv v, consistent known rho ->
  shrink opf funs fs known [] e = Some (EConst c) -> seval opf funs fv rho [] e = Some v -> c = v.
Proof. exact shrink_constant_is_value. Qed.

(* the residue is self-contained: no calls and no function parameters remain, so it can be compiled alone *)
Theorem C16_residue_is_self_contained :
  forall opf funs fs known e e', shrink opf funs fs known [] e = Some e' -> plain e' = true.
Proof. intros opf funs fs known e e' H. exact (shrink_plain opf funs fs known [] e e' eq_refl H). Qed.

(* non-vacuity: the evaluator can be lazier than the program. F0(a, b) = b ; main = F0 (first X0) 7:
   the evaluator answers 7 with nothing known, the program fails when X0 is an atom *)
Example C16_example_lazier :
  let opf := fun (op : bytes) (args : val) => match op, args with [5], Cons (Cons a _) _ => Some a | _, _ => None end in
  let funs := [ELocal 1] in
  let main := ECall 0 [EOp [5] [EVar 0]; EConst (Atom [7])] in
  shrink opf funs 10 [None] [] main = Some (EConst (Atom [7]))
  /\ seval opf funs 10 [Atom [1]] [] main = None
  /\ seval opf funs 10 [Cons (Atom [1]) (Atom [2])] [] main = Some (Atom [7]).
Proof. vm_compute. repeat split. Qed.
