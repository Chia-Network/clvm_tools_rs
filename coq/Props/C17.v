(* C17 - An argument reported as unused really cannot influence the result.
   Property theorems only, over the evaluator model of Lang/PEval.v: the unused-argument check evaluates the
   program with nothing known and reports the parameters that do not occur in the residue.
   Proved: two runs that differ only in a reported parameter and both return a value return the same value.
   NOT provable (and false of the model, see the example): that one run fails exactly when the other does -
   the evaluator substitutes argument expressions, so an argument that is evaluated by compiled code but not
   used by the callee disappears from the residue although its evaluation can fail. The full property is
   decided against the implementation by execution (checks/c17.py). *)
From CV Require Import Base.Prelude Base.Val Lang.PEval Lang.PEvalProofs.

Theorem C17_reported_unused_cannot_change_a_value_partial :
  forall opf funs fs np body n rho rho' f f' v v',
  reported_unused opf funs fs np body n = true -> agree_except n rho rho' ->
  seval opf funs f rho [] body = Some v -> seval opf funs f' rho' [] body = Some v' -> v = v'.
Proof. exact unused_noninterference. Qed.

(* the failure half does not hold of the model: X0 is reported unused, yet the program fails or not depending on it *)
Example C17_failure_half_refuted :
  let opf := fun (op : bytes) (args : val) => match op, args with [5], Cons (Cons a _) _ => Some a | _, _ => None end in
  let funs := [ELocal 1] in
  let main := ECall 0 [EOp [5] [EVar 0]; EConst (Atom [7])] in
  reported_unused opf funs 10 1 main 0 = true
  /\ seval opf funs 10 [Atom [1]] [] main = None
  /\ seval opf funs 10 [Cons (Atom [1]) (Atom [2])] [] main = Some (Atom [7]).
Proof. vm_compute. repeat split. Qed.
