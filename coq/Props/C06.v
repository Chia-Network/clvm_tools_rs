(* C06 - The built-in stepping evaluator agrees with the consensus CLVM evaluator.
   Property theorems only. Model: Step/Stepper.v (the RunStep machine of compiler/clvm.rs over CLVM
   values, strict core); consensus relation: Clvm/Eval.v.
   Proved (for every program, environment, continuation and every operator oracle that knows the
   natively implemented operators only under their canonical spelling): whenever the consensus
   evaluator returns v without evaluating a ((X) ...) form, the stepping machine terminates with v.
   The converse direction is false of the code as it stands in the recorded leniency classes
   (operator given by name, non-canonical opcode bytes, ((X) ...) heads): see known_findings.json;
   it is stated below and decided by execution outside those classes. *)
From CV Require Import Base.Prelude Base.Val Clvm.Eval Clvm.Ops Step.Stepper Step.StepperProofs.

Definition strict_native_oracle (opf : bytes -> val -> option val) : Prop :=
  (forall h args v, opf h args = Some v -> native_value h = true -> exists o, h = [o] /\ o < 256) /\
  (forall vs, opf [3] (of_list vs) = match vs with [c; x; y] => Some (if nilp c then y else x) | _ => None end) /\
  (forall vs, opf [4] (of_list vs) = match vs with [x; y] => Some (Cons x y) | _ => None end) /\
  (forall vs, opf [5] (of_list vs) = match vs with [Cons x _] => Some x | _ => None end) /\
  (forall vs, opf [6] (of_list vs) = match vs with [Cons _ y] => Some y | _ => None end).

(* the full property as a statement about the model (not proved: false in the leniency classes) *)
Definition C06_agrees_full : Prop :=
  forall opf, strict_native_oracle opf -> forall p e v,
    (exists l, run opf l (start p e) = Ok v) <-> (exists n, eval opf n p e = Ok v).

Theorem C06_stepper_returns_consensus_value_partial :
  forall opf, strict_native_oracle opf ->
  forall n p e v, eval_nph opf n p e = Ok v ->
    exists l, forall l', (l <= l')%nat -> run opf l' (start p e) = Ok v.
Proof.
  intros opf (H1 & H2 & H3 & H4 & H5). apply stepper_returns_consensus_value; assumption.
Qed.

(* what eval_nph (the relation restricted to programs that never evaluate a ((X) ...) form) returns, the
   consensus evaluator returns *)
Theorem C06_eval_nph_is_consensus :
  forall opf n p e v, eval_nph opf n p e = Ok v -> eval opf n p e = Ok v.
Proof. exact eval_nph_eval. Qed.

(* every continuation: stepping a sub-expression inside any parent chain returns its value to the parent *)
Theorem C06_forward_simulation :
  forall opf, strict_native_oracle opf ->
  forall n p e v, eval_nph opf n p e = Ok v ->
  forall K, exists m, iter opf m (SStep p e K) = Some (combine_done v K).
Proof. intros opf (H1 & H2 & H3 & H4 & H5). apply forward; assumption. Qed.

Example C06_example :
  run opf_exec 100 (start (Cons (Atom [16]) (Cons (Cons (Atom [1]) (Atom [5])) (Cons (Atom [2]) nilv))) (Cons (Atom [7]) nilv)) = Ok (Atom [12])
  /\ eval_nph opf_exec 10 (Cons (Atom [16]) (Cons (Cons (Atom [1]) (Atom [5])) (Cons (Atom [2]) nilv))) (Cons (Atom [7]) nilv) = Ok (Atom [12]).
Proof. vm_compute. split; reflexivity. Qed.
