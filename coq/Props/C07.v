(* C07 - Rich s-expression values and CLVM values convert without loss; hashes agree.
   Property theorems only. Model: Rich/Rich.v (convert_to_clvm_rs, convert_from_clvm_rs in both
   integer modes, the three tree hashes over an abstract SHA-256, SExp::nilp / equal_to / Hash). *)
From CV Require Import Base.Prelude Base.Val Rich.Rich Rich.RichProofs.

(* CLVM -> rich -> CLVM is the identity, in every dialect's integer mode *)
Theorem C07_to_from : forall mode v, to_clvm mode (from_clvm mode v) = v.
Proof. exact to_from. Qed.

(* tree hash on the rich form = consensus tree hash of its CLVM form; rich form of v hashes as v;
   the classic tree hash is the consensus tree hash *)
Theorem C07_hash_of_rich : forall mode r, sha256tree_rich mode r = treehash (to_clvm mode r).
Proof. exact hash_to. Qed.
Theorem C07_hash_of_converted : forall mode v, sha256tree_rich mode (from_clvm mode v) = treehash v.
Proof. exact hash_rich. Qed.
Theorem C07_hash_classic : forall v, sha256tree_classic v = treehash v.
Proof. exact hash_classic. Qed.

(* in the fixed mode, two rich values compare equal exactly when their CLVM encodings are identical
   (for all rich values, not only reader/converter images) *)
Theorem C07_eq_iff_bytes : forall a b, equal_to a b = true <-> to_clvm true a = to_clvm true b.
Proof. exact eq_iff_bytes. Qed.

(* ... and then they feed the same bytes to Hash, for values without an Integer 0 node; values
   converted from CLVM in the fixed mode have none (the reader's make_atom maps "0" to Nil) *)
Theorem C07_hash_compat : forall a b, no_int0 a = true -> no_int0 b = true ->
  equal_to a b = true -> hash_stream a = hash_stream b.
Proof. intros a b Ha Hb E. apply to_clvm_hash_stream; try assumption. apply eq_iff_bytes. exact E. Qed.
Theorem C07_converted_no_int0 : forall v, no_int0 (from_clvm true v) = true.
Proof. exact from_clvm_no_int0. Qed.

(* non-vacuity *)
Example C07_example :
  from_clvm true (Cons (Atom [0]) (Cons (Atom [0; 128]) (Atom [255; 127]))) =
    RCons (RQuoted 120 [0]) (RCons (RInt 128) (RInt (-129))) /\
  from_clvm false (Atom [0]) = RInt 0 /\
  equal_to (RInt 65) (RQuoted 34 [65]) = true /\ equal_to (RInt 0) RNil = true.
Proof. vm_compute. repeat split. Qed.
