(* C03 - Classic compiler output computes what the source means.
   Property theorems only. The classic compiler (a compiler written as CLVM operators run through the
   optimiser) is not modelled as a whole; the whole statement is decided by execution (classic build vs
   the reference interpreter and vs the cl21 build). Proved: the NodePath arithmetic the classic
   compiler and optimiser use to address arguments and environment slots (node_path.rs compose_paths,
   the shift / mask loop) composes paths exactly: following the composed path is following the first and
   then the second, for all paths of any width; and the parameter-path lemma shared with C01. *)
From CV Require Import Base.Prelude Clvm.Path Clvm.NodePath Lang.Lookup.

Theorem C03_compose_paths_is_append_partial : forall p q, compose_paths_n (Npos p) (Npos q) = Npos (papp p q).
Proof. exact compose_paths_spec. Qed.

Theorem C03_composed_path_traverses_partial : forall p q e,
  traverse_N (compose_paths_n (Npos p) (Npos q)) e = res_bind (traverse_pos p e) (traverse_pos q).
Proof. exact compose_paths_traverse. Qed.

Theorem C03_parameter_path_correct_partial : forall p name path env v,
  lookup p name = Some path -> select p name env = Some v -> traverse_pos path env = Ok v.
Proof. exact lookup_correct. Qed.

Example C03_example : compose_paths_n 9 10 = 81 /\ compose_paths_n 65535 2 = 98303.
Proof. vm_compute. split; reflexivity. Qed.
