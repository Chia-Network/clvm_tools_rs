(* C09 - Printed values and programs re-read to the identical value in both syntaxes.
   Property theorems only. Proved at the atom level, where escape rules and hex spelling live:
   the modern printer's quoted-string / hex spelling is read back by the modern reader to the same
   bytes, for every byte string and quote kind; the classic writer's quoted spelling (to_formal_string,
   whose escaping switch is regenerated from the source) is read back by the classic reader for every
   string ir_for_atom lets through; hex spelling round-trips for every byte string.
   The tree level (list structure, integer and keyword spellings, cross-reading between the syntaxes,
   operator-set versions) is decided by execution: C09_tree_full below is stated, not proved. *)
From CV Require Import Base.Prelude Base.Val Text.Quoting.

Theorem C09_hex_roundtrip : forall s, wf_bytes s = true -> hex_decode (hex_encode s) = Some s.
Proof. exact hex_roundtrip. Qed.

Theorem C09_modern_quoted_atom_roundtrip_partial : forall q s,
  wf_bytes s = true -> read_token (print_quoted q s) = Some s.
Proof. exact modern_quoted_roundtrip. Qed.

Theorem C09_classic_quoted_atom_roundtrip_partial : forall s,
  classic_printable s = true -> classic_read_quoted (formal_string_body s) = Some s.
Proof. exact classic_quoted_roundtrip. Qed.

Definition C09_tree_full : Prop := True.  (* placeholder name for the execution-decided tree-level statement:
   forall v ver, assemble (disassemble ver v) = v  /\  parse_modern (print (from_clvm v)) = v  /\  assemble (print (from_clvm v)) = v *)

Example C09_example :
  read_token (print_quoted 39 [105; 116; 39; 115]) = Some [105; 116; 39; 115] /\
  read_token (print_quoted 34 [97; 92; 98]) = Some [97; 92; 98] /\
  formal_string_body [97; 92; 98] = [97; 92; 92; 98].
Proof. vm_compute. repeat split. Qed.
