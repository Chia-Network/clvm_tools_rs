(* C02 - Optimisation switches and optimising dialects never change results.
   Property theorems only. The source-level optimisers (CSE, de-inlining, constant folding of the
   strategy optimiser, the cl22 frontend optimiser) are not modelled; for them the property is decided by
   execution (build-vs-build comparison over the C01 matrix and against the reference interpreter).
   Proved: the classic post-optimiser (the `-O` / library-path switch of cl21 and cl22 builds, and the final
   pass of every build: optimize/mod.rs run_optimizer = stage_2 optimize_sexp) never changes a returned value -
   the whole driver with its eight rules (C02_post_optimiser_sound_partial, shared with C04) - and fuel monotonicity of
   the evaluation relation (a build may take more or fewer steps, never change a returned value by that). *)
From CV Require Import Base.Prelude Base.Val Clvm.Eval Opt.ClassicOpt Opt.ClassicOptProofs Opt.OptimizeSound.

Theorem C02_post_optimiser_sound_partial : forall opf,
  (forall a b, opf [4] (Cons a (Cons b nilv)) = Some (Cons a b)) ->
  (forall x, opf [5] (Cons x nilv) = match x with Cons a _ => Some a | Atom _ => None end) ->
  (forall x, opf [6] (Cons x nilv) = match x with Cons _ b => Some b | Atom _ => None end) ->
  forall fuel r r', optimize opf fuel r = Done r' ->
  forall e n v, eval opf n r e = Ok v -> exists m, eval opf m r' e = Ok v.
Proof. exact optimize_sound. Qed.

Theorem C02_post_optimiser_cons_rule_partial : forall opf,
  (forall a b, opf [4] (Cons a (Cons b nilv)) = Some (Cons a b)) ->
  (forall x, opf [5] (Cons x nilv) = match x with Cons a _ => Some a | Atom _ => None end) ->
  (forall x, opf [6] (Cons x nilv) = match x with Cons _ b => Some b | Atom _ => None end) ->
  forall r e n v, eval opf n r e = Ok v -> exists m, eval opf m (cons_optimizer r) e = Ok v.
Proof. intros opf H1 H2 H3 r e n v H. apply cons_optimizer_sound; [assumption..|exists n; exact H]. Qed.

Theorem C02_post_optimiser_apply_quote_rule_partial : forall opf r e n v,
  eval opf n r e = Ok v -> exists m, eval opf m (cons_q_a_optimizer r) e = Ok v.
Proof. intros opf r e n v H. apply cons_q_a_optimizer_sound. exists n. exact H. Qed.

Theorem C02_more_steps_same_value_partial : forall opf n p e v,
  eval opf n p e = Ok v -> forall m, (n <= m)%nat -> eval opf m p e = Ok v.
Proof. exact eval_mono. Qed.
