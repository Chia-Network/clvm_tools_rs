(* Arithmetic / bitwise helper lemmas over N used by the codec and path proofs. *)
From CV Require Import Base.Prelude.

Definition nrange (n : nat) : list N := map N.of_nat (seq 0 n).

Lemma nrange_in n x : x < N.of_nat n -> In x (nrange n).
Proof.
  intros H. unfold nrange. apply in_map_iff. exists (N.to_nat x). split; [lia|].
  apply in_seq. lia.
Qed.

Lemma lor_add_low hi lo k : lo < 2 ^ k -> hi mod 2 ^ k = 0 -> N.lor hi lo = hi + lo.
Proof.
  intros Hlo Hhi.
  assert (Hdisj : N.land hi lo = 0).
  { apply N.bits_inj_0. intros n. rewrite N.land_spec.
    destruct (N.lt_ge_cases n k) as [Hn|Hn].
    - rewrite <- (N.mod_pow2_bits_low hi k n Hn), Hhi, N.bits_0. reflexivity.
    - rewrite <- (N.mod_small lo (2 ^ k) Hlo), (N.mod_pow2_bits_high lo k n Hn). apply andb_false_r. }
  rewrite <- N.lxor_lor by exact Hdisj.
  rewrite <- N.add_nocarry_lxor by exact Hdisj. reflexivity.
Qed.

Lemma land_low a k : N.land a (2 ^ k - 1) = a mod 2 ^ k.
Proof. rewrite N.sub_1_r, <- N.ones_equiv. apply N.land_ones. Qed.
