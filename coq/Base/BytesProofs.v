(* The loops of casts.rs (Base/Bytes.v from_bytes_core) read big-endian, whatever the length: groups of four
   bytes from the right, then the remaining leading bytes, with or without wrap-around. Then the writing
   direction: be_digits, and digits of a fixed width. *)
From CV Require Import Base.Prelude Base.Val Base.NLemmas Gen.Consts Base.Bytes.
From Coq Require Import ZifyNat.

Fixpoint slice (v : bytes) (off k : nat) : N :=
  match k with O => 0 | S i => slice v off i * 256 + nth (off + i) v 0 end.

Lemma slice_add v off k n :
  slice v off (k + n) = slice v off k * 256 ^ N.of_nat n + slice v (off + k) n.
Proof.
  induction n as [|n IH].
  - rewrite Nat.add_0_r. cbn. lia.
  - rewrite Nat.add_succ_r. cbn [slice]. rewrite IH, Nat2N.inj_succ, N.pow_succ_r', Nat.add_assoc. lia.
Qed.

Lemma slice_cons x v off k : slice (x :: v) (S off) k = slice v off k.
Proof. induction k as [|k IH]; cbn [slice]; [reflexivity|]. rewrite IH. reflexivity. Qed.

Lemma be_acc_slice v : forall acc,
  be_acc acc v = acc * 256 ^ N.of_nat (length v) + slice v 0 (length v).
Proof.
  induction v as [|x v IH]; intros acc; cbn [be_acc length].
  - cbn. lia.
  - rewrite IH. change (S (length v)) with (1 + length v)%nat at 2.
    rewrite slice_add. cbn [Nat.add slice nth]. rewrite slice_cons, Nat2N.inj_succ, N.pow_succ_r'. lia.
Qed.

Lemma be_unsigned_slice v : be_unsigned v = slice v 0 (length v).
Proof. unfold be_unsigned. rewrite be_acc_slice. lia. Qed.

Lemma be_acc_shift b acc : be_acc acc b = acc * 256 ^ N.of_nat (length b) + be_acc 0 b.
Proof. rewrite (be_acc_slice b acc), (be_acc_slice b 0). lia. Qed.

Lemma wf_nth v : wf_bytes v = true -> forall i, nth i v 0 < 256.
Proof.
  induction v as [|x v IH]; intros H [|i]; cbn [nth]; try lia; apply wf_bytes_cons in H.
  - tauto.
  - apply IH. tauto.
Qed.

Lemma slice_bound v off k : wf_bytes v = true -> slice v off k < 256 ^ N.of_nat k.
Proof.
  intros H. induction k as [|k IH]; cbn [slice]; [cbn; lia|].
  pose proof (wf_nth v H (off + k)). rewrite Nat2N.inj_succ, N.pow_succ_r'. lia.
Qed.

Lemma get_u32_be a b c d : a < 256 -> b < 256 -> c < 256 -> d < 256 ->
  get_u32_expr a b c d = a * 16777216 + b * 65536 + c * 256 + d.
Proof.
  intros Ha Hb Hc Hd. unfold get_u32_expr. rewrite !N.shiftl_mul_pow2.
  rewrite (lor_add_low _ (b * 2 ^ 16) 24), (lor_add_low _ (c * 2 ^ 8) 16), (lor_add_low _ d 8) by lia. lia.
Qed.

Lemma get_u32_slice v n : wf_bytes v = true -> get_u32 v n = slice v n 4.
Proof.
  intros H. unfold get_u32. rewrite get_u32_be by (apply wf_nth; exact H).
  cbn [slice]. rewrite Nat.add_0_r. lia.
Qed.

Lemma remain_loop_spec v k : forall u o,
  remain_loop k v u o None = (u + o * slice v 0 k, o * 256 ^ N.of_nat k).
Proof.
  induction k as [|k IH]; intros u o; cbn [remain_loop slice Nat.add].
  - f_equal; lia.
  - rewrite IH, Nat2N.inj_succ, N.pow_succ_r'. f_equal; lia.
Qed.

Lemma groups_loop_spec v r k : wf_bytes v = true -> forall u o,
  groups_loop k r v u o None = (u + o * slice v r (4 * k), o * 256 ^ N.of_nat (4 * k)).
Proof.
  intros H. induction k as [|k IH]; intros u o; cbn [groups_loop].
  - cbn. f_equal; lia.
  - rewrite IH, get_u32_slice by exact H.
    replace (4 * S k)%nat with (4 * k + 4)%nat by lia. replace (k * 4 + r)%nat with (r + 4 * k)%nat by lia.
    rewrite slice_add, Nat2N.inj_add, N.pow_add_r. unfold two32. change (256 ^ N.of_nat 4) with 4294967296.
    f_equal; lia.
Qed.

Theorem from_bytes_core_be v : wf_bytes v = true -> from_bytes_core v None = be_unsigned v.
Proof.
  intros H. unfold from_bytes_core.
  set (r := (length v mod 4)%nat). set (k := ((length v - r) / 4)%nat).
  assert (E : length v = (r + 4 * k)%nat) by (subst r k; lia).
  rewrite groups_loop_spec by exact H.
  (* casts.rs sets order back to 1 when there was no group; it is 256 ^ 0 then anyway *)
  replace (if Nat.eqb k 0 then 1 else _) with (256 ^ N.of_nat (4 * k)) by (destruct k; cbn; lia).
  rewrite remain_loop_spec, be_unsigned_slice, E, slice_add. cbn [fst Nat.add]. lia.
Qed.

Lemma mod_acc m u o c u' o' : m <> 0 -> u' = u mod m -> o' mod m = o mod m ->
  (u' + c * o') mod m = (u + c * o) mod m.
Proof.
  intros Hm -> Ho. rewrite N.add_mod_idemp_l by exact Hm.
  rewrite N.add_mod, (N.mul_mod c o'), Ho, <- N.mul_mod, <- N.add_mod by exact Hm. reflexivity.
Qed.

Lemma mod_order m o c o' : m <> 0 -> o' mod m = o mod m -> (o' * c mod m) mod m = (o * c) mod m.
Proof. intros Hm Ho. rewrite N.mod_mod, N.mul_mod, Ho, <- N.mul_mod by exact Hm. reflexivity. Qed.

Lemma groups_loop_wrap m v r k : m <> 0 -> forall u o u' o', u' = u mod m -> o' mod m = o mod m ->
  fst (groups_loop k r v u' o' (Some m)) = fst (groups_loop k r v u o None) mod m /\
  snd (groups_loop k r v u' o' (Some m)) mod m = snd (groups_loop k r v u o None) mod m.
Proof.
  intros Hm. induction k as [|k IH]; intros u o u' o' Hu Ho; cbn [groups_loop].
  - split; assumption.
  - apply IH; [apply mod_acc | apply mod_order]; assumption.
Qed.

Lemma remain_loop_wrap m v k : m <> 0 -> forall u o u' o', u' = u mod m -> o' mod m = o mod m ->
  fst (remain_loop k v u' o' (Some m)) = fst (remain_loop k v u o None) mod m.
Proof.
  intros Hm. induction k as [|k IH]; intros u o u' o' Hu Ho; cbn [remain_loop].
  - assumption.
  - apply IH; [apply mod_acc | apply mod_order]; assumption.
Qed.

Theorem from_bytes_core_wrap m v : m <> 0 -> from_bytes_core v (Some m) = from_bytes_core v None mod m.
Proof.
  intros Hm. unfold from_bytes_core.
  destruct (groups_loop_wrap m v (length v mod 4) ((length v - length v mod 4) / 4) Hm 0 1 0 1) as [Hu Ho];
    [symmetry; apply N.mod_0_l; exact Hm | reflexivity |].
  destruct (groups_loop _ _ v 0 1 (Some m)) as [u' o'], (groups_loop _ _ v 0 1 None) as [u o].
  apply (remain_loop_wrap m v _ Hm); [exact Hu|]. destruct (Nat.eqb _ 0); [reflexivity|exact Ho].
Qed.

(* int_from_bytes wraps at 2^64, which eight bytes do not reach *)
Theorem int_from_bytes_spec b : wf_bytes b = true -> (length b <= 8)%nat ->
  int_from_bytes b = Some (be_unsigned b).
Proof.
  intros H L. unfold int_from_bytes. destruct b as [|x b']; [reflexivity|]. set (b := x :: b') in *.
  replace (64 <? 8 * N.of_nat (length b)) with false by (symmetry; apply N.ltb_ge; lia).
  rewrite from_bytes_core_wrap, from_bytes_core_be by (exact H || discriminate).
  f_equal. apply N.mod_small. rewrite be_unsigned_slice.
  apply N.lt_le_trans with (256 ^ N.of_nat (length b)); [apply slice_bound; exact H|].
  change two64 with (256 ^ 8). apply N.pow_le_mono_r; lia.
Qed.

(* be_digits gives one round of fuel per bit of n, although a round takes eight *)
Lemma be_digits_pos_spec : forall fuel n acc, n < 2 ^ N.of_nat fuel ->
  be_unsigned (be_digits_pos fuel n acc) = n * 256 ^ N.of_nat (length acc) + be_unsigned acc.
Proof.
  induction fuel as [|f IH]; intros n acc Hf; cbn [be_digits_pos].
  - lia.
  - destruct (N.eqb_spec n 0) as [->|Hn]; [lia|].
    rewrite Nat2N.inj_succ, N.pow_succ_r' in Hf.
    rewrite (land_low _ 8), N.shiftr_div_pow2. change (2 ^ 8) with 256.
    rewrite IH by (apply N.div_lt_upper_bound; lia).
    unfold be_unsigned. cbn [be_acc length]. rewrite (be_acc_shift acc (_ + _)), Nat2N.inj_succ, N.pow_succ_r'.
    rewrite (N.div_mod n 256) at 3 by lia. lia.
Qed.

Lemma be_unsigned_be_digits n : be_unsigned (be_digits n) = n.
Proof.
  unfold be_digits. rewrite be_digits_pos_spec; [cbn; lia|].
  rewrite Nat2N.inj_succ, N2Nat.id, N.pow_succ_r'. pose proof (N.size_gt n). lia.
Qed.

Fixpoint low_bytes (j : nat) (n : N) : bytes :=
  match j with O => [] | S i => (n / 256 ^ N.of_nat i) mod 256 :: low_bytes i n end.

Lemma low_bytes_length j n : length (low_bytes j n) = j.
Proof. induction j as [|j IH]; cbn [low_bytes length]; congruence. Qed.

Lemma wf_low_bytes j n : wf_bytes (low_bytes j n) = true.
Proof.
  induction j as [|j IH]; cbn [low_bytes wf_bytes]; [reflexivity|].
  rewrite IH, andb_true_r. apply N.ltb_lt, N.mod_lt. discriminate.
Qed.

Lemma be_acc_low_bytes j n : forall acc,
  be_acc acc (low_bytes j n) = acc * 256 ^ N.of_nat j + n mod 256 ^ N.of_nat j.
Proof.
  induction j as [|j IH]; intros acc; cbn [low_bytes be_acc].
  - rewrite N.mod_1_r. lia.
  - rewrite IH, Nat2N.inj_succ, N.pow_succ_r', (N.mul_comm 256).
    rewrite N.mod_mul_r by (try apply N.pow_nonzero; discriminate). lia.
Qed.

Lemma be_unsigned_low_bytes j n : be_unsigned (n / 256 ^ N.of_nat j :: low_bytes j n) = n.
Proof.
  unfold be_unsigned. cbn [be_acc]. rewrite be_acc_low_bytes, N.mul_0_l, N.add_0_l, N.mul_comm.
  symmetry. apply N.div_mod'.
Qed.
