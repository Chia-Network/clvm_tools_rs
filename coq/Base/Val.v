(* CLVM values: atoms are byte strings (bytes as N, each < 256 in well-formed values). *)
From CV Require Import Base.Prelude.

Inductive val := Atom (b : bytes) | Cons (a b : val).

Definition nilv : val := Atom [].

Definition nilp (v : val) : bool := match v with Atom [] => true | _ => false end.

Fixpoint val_eqb (a b : val) : bool :=
  match a, b with
  | Atom x, Atom y => bytes_eqb x y
  | Cons a1 a2, Cons b1 b2 => val_eqb a1 b1 && val_eqb a2 b2
  | _, _ => false
  end.

Lemma val_eqb_eq a b : val_eqb a b = true <-> a = b.
Proof.
  revert b; induction a as [x|a1 IH1 a2 IH2]; destruct b as [y|b1 b2]; cbn; try (split; congruence).
  - rewrite bytes_eqb_eq. split; congruence.
  - rewrite andb_true_iff, IH1, IH2. split; [intros [-> ->]; reflexivity | intros E; inversion E; auto].
Qed.

Lemma val_eqb_refl a : val_eqb a a = true.
Proof. apply val_eqb_eq; reflexivity. Qed.

Fixpoint wf_bytes (b : bytes) : bool :=
  match b with [] => true | x :: r => (x <? 256) && wf_bytes r end.

Lemma wf_bytes_cons x r : wf_bytes (x :: r) = true -> x < 256 /\ wf_bytes r = true.
Proof. cbn. rewrite andb_true_iff, N.ltb_lt. tauto. Qed.

Lemma wf_bytes_app a b : wf_bytes (a ++ b) = wf_bytes a && wf_bytes b.
Proof. induction a as [|x r IH]; cbn; [reflexivity|]. rewrite IH. apply andb_assoc. Qed.

Lemma wf_bytes_firstn_skipn n s :
  wf_bytes s = true -> wf_bytes (firstn n s) = true /\ wf_bytes (skipn n s) = true.
Proof. rewrite <- (firstn_skipn n s) at 1. rewrite wf_bytes_app. apply andb_true_iff. Qed.

Fixpoint wf_val (v : val) : bool :=
  match v with Atom b => wf_bytes b | Cons a b => wf_val a && wf_val b end.

(* proper list view *)
Fixpoint to_list (v : val) : option (list val) :=
  match v with
  | Atom [] => Some []
  | Atom _ => None
  | Cons a b => match to_list b with Some l => Some (a :: l) | None => None end
  end.

Fixpoint of_list (l : list val) : val :=
  match l with [] => nilv | x :: r => Cons x (of_list r) end.

Lemma to_list_of_list l : to_list (of_list l) = Some l.
Proof. induction l as [|x r IH]; cbn; [reflexivity|]. rewrite IH. reflexivity. Qed.

Lemma to_list_inv v : forall l, to_list v = Some l -> v = of_list l.
Proof.
  induction v as [b|a _ d IH]; intros l H; cbn [to_list] in H.
  - destruct b; [|discriminate]. injection H as <-. reflexivity.
  - destruct (to_list d) as [l'|]; [|discriminate]. injection H as <-. rewrite (IH l' eq_refl). reflexivity.
Qed.

Fixpoint val_size (v : val) : nat :=
  match v with Atom _ => 1%nat | Cons a b => S (val_size a + val_size b) end.
