(* Shared small definitions: byte strings as [list N], names from Coq strings,
   association-list lookup with HashMap-insert semantics, result type. *)
From Coq Require Export List NArith ZArith Bool Lia.
From Coq Require Import String Ascii.
Export ListNotations.
Open Scope N_scope.

Arguments N.add : simpl never.
Arguments N.sub : simpl never.
Arguments N.mul : simpl never.
Arguments N.eqb : simpl never.
Arguments N.ltb : simpl never.
Arguments N.leb : simpl never.

Definition bytes := list N.

Fixpoint str (s : string) : bytes :=
  match s with
  | EmptyString => []
  | String c r => N_of_ascii c :: str r
  end.

Fixpoint bytes_eqb (a b : bytes) : bool :=
  match a, b with
  | [], [] => true
  | x :: a', y :: b' => (x =? y) && bytes_eqb a' b'
  | _, _ => false
  end.

Lemma bytes_eqb_eq a b : bytes_eqb a b = true <-> a = b.
Proof.
  revert b; induction a as [|x a IH]; destruct b as [|y b]; cbn; try (split; congruence).
  rewrite andb_true_iff, N.eqb_eq, IH. split; [intros [-> ->]; reflexivity | intros E; inversion E; auto].
Qed.

Lemma bytes_eqb_refl a : bytes_eqb a a = true.
Proof. apply bytes_eqb_eq; reflexivity. Qed.

Lemma bytes_eqb_neq a b : bytes_eqb a b = false <-> a <> b.
Proof. rewrite <- bytes_eqb_eq. symmetry. apply not_true_iff_false. Qed.

Inductive cmp_kind := CmpEq | CmpLe | CmpLt | CmpGe | CmpGt | CmpNe.
Definition cmp_eval (c : cmp_kind) (a b : N) : bool :=
  match c with
  | CmpEq => a =? b | CmpLe => a <=? b | CmpLt => a <? b
  | CmpGe => b <=? a | CmpGt => b <? a | CmpNe => negb (a =? b)
  end.

(* Result of a fuelled computation. *)
Inductive res (A : Type) := Ok (a : A) | Fail | Oof.
Arguments Ok {A} a. Arguments Fail {A}. Arguments Oof {A}.

Definition res_bind {A B} (r : res A) (f : A -> res B) : res B :=
  match r with Ok a => f a | Fail => Fail | Oof => Oof end.

(* Association list with the semantics of inserting rows in order into a HashMap:
   a later row with the same key replaces the earlier one. *)
Section Assoc.
  Context {K V : Type} (keq : K -> K -> bool).
  Fixpoint assoc_last (l : list (K * V)) (k : K) : option V :=
    match l with
    | [] => None
    | (k', v) :: r =>
        match assoc_last r k with
        | Some v' => Some v'
        | None => if keq k' k then Some v else None
        end
    end.
  Fixpoint assoc_first (l : list (K * V)) (k : K) : option V :=
    match l with
    | [] => None
    | (k', v) :: r => if keq k' k then Some v else assoc_first r k
    end.
End Assoc.
