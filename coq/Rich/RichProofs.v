From CV Require Import Base.Prelude Base.Val Base.Bytes Rich.Rich.

Lemma from_clvm_atom_spec mode data :
  to_clvm mode (from_clvm_atom mode data) = Atom data /\
  (mode = true -> no_int0 (from_clvm_atom mode data) = true).
Proof.
  unfold from_clvm_atom. destruct data as [|x r]; [split; reflexivity|].
  destruct (bytes_eqb _ (x :: r)) eqn:E.
  - apply bytes_eqb_eq in E.
    destruct (mode && bytes_eqb (x :: r) [0]) eqn:M; [split; reflexivity|].
    (* Integer 0 is spelled [0], and that atom the fixed mode has just turned into a quoted string *)
    assert (Hz0 : mode && Z.eqb (number_from_u8 (x :: r)) 0 = false).
    { destruct (Z.eqb_spec (number_from_u8 (x :: r)) 0) as [Hz|_]; [|apply andb_false_r].
      rewrite Hz in E. rewrite <- E in M. exact M. }
    cbn [to_clvm no_int0]. rewrite Hz0, E. split; [reflexivity|].
    intros ->. apply negb_true_iff. exact Hz0.
  - destruct (mode && negb (printable (x :: r) true)); split; reflexivity.
Qed.

Theorem to_from mode v : to_clvm mode (from_clvm mode v) = v.
Proof.
  induction v as [b|a IHa d IHd]; cbn [from_clvm to_clvm].
  - apply from_clvm_atom_spec.
  - rewrite IHa, IHd. reflexivity.
Qed.

Theorem hash_to mode r : sha256tree_rich mode r = treehash (to_clvm mode r).
Proof.
  induction r as [|a IHa b IHb|z|q b|b]; cbn [sha256tree_rich to_clvm treehash]; try reflexivity.
  - rewrite IHa, IHb. reflexivity.
  - destruct (mode && Z.eqb z 0); reflexivity.
Qed.

Theorem hash_rich mode v : sha256tree_rich mode (from_clvm mode v) = treehash v.
Proof. rewrite hash_to, to_from. reflexivity. Qed.

(* the two are the same fixpoint, written with the branches in the other order *)
Theorem hash_classic v : sha256tree_classic v = treehash v.
Proof. reflexivity. Qed.

Lemma signed_bytes_nonempty z : signed_bytes_be z <> [].
Proof.
  destruct z as [|p|p]; cbn [signed_bytes_be]; try discriminate.
  - destruct (be_digits (N.pos p)) as [|x r]; [discriminate|]. destruct (128 <=? x); discriminate.
  - set (k0 := N.to_nat ((N.size (N.pos p - 1) + 8) / 8)).
    set (k := if (k0 =? 0)%nat then 1%nat else k0).
    assert (Hk : (1 <= k)%nat) by (subst k; destruct (Nat.eqb_spec k0 0); lia).
    intros H. apply (f_equal (@length N)) in H. rewrite app_length, repeat_length in H. cbn in H. lia.
Qed.

Lemma rnilp_nilp r : rnilp r = nilp (to_clvm true r).
Proof.
  destruct r as [|a b|z|q [|]|[|]]; try reflexivity.
  cbn [rnilp to_clvm andb]. destruct (Z.eqb z 0); [reflexivity|].
  cbn [nilp]. unfold u8_from_number. destruct (signed_bytes_be z) eqn:E; [destruct (signed_bytes_nonempty z E)|reflexivity].
Qed.

(* A value is a cons, or it is compared by its leaf_bytes. *)
Lemma rich_leaf_ind (P : rich -> Prop) :
  (forall r x, leaf_bytes r = Some x -> P r) ->
  (forall a b, P a -> P b -> P (RCons a b)) ->
  forall r, P r.
Proof.
  intros Hleaf Hcons. induction r; [| apply Hcons; assumption | ..]; eapply Hleaf; reflexivity.
Qed.

Lemma leaf_to_clvm r x : leaf_bytes r = Some x -> to_clvm true r = Atom (if rnilp r then [] else x).
Proof.
  destruct r as [|a b|z|q b|b]; cbn [leaf_bytes rnilp to_clvm andb]; intros [= <-].
  - reflexivity.
  - destruct (Z.eqb z 0); reflexivity.
  - destruct b; reflexivity.
  - destruct b; reflexivity.
Qed.

Lemma equal_to_leaves a b x y : leaf_bytes a = Some x -> leaf_bytes b = Some y ->
  equal_to a b = if rnilp a && rnilp b then true else if rnilp a || rnilp b then false else bytes_eqb x y.
Proof.
  destruct a, b; intros [= <-] [= <-]; reflexivity.
Qed.

Lemma equal_to_cons_leaf a1 a2 b y : leaf_bytes b = Some y ->
  equal_to (RCons a1 a2) b = false /\ equal_to b (RCons a1 a2) = false.
Proof.
  intros L. destruct (rnilp b) eqn:N; destruct b; try discriminate L; cbn [equal_to]; rewrite N.
  all: split; reflexivity.
Qed.

(* equal_to's two tests for nil change nothing: val_eqb agrees with them *)
Lemma val_eqb_nilp u v :
  val_eqb u v = if nilp u && nilp v then true else if nilp u || nilp v then false else val_eqb u v.
Proof. destruct u as [[|]|], v as [[|]|]; reflexivity. Qed.

Theorem equal_to_val_eqb : forall a b, equal_to a b = val_eqb (to_clvm true a) (to_clvm true b).
Proof.
  induction a as [a x La|a1 a2 IH1 IH2] using rich_leaf_ind; intros b;
    destruct b as [b y Lb|b1 b2 _ _] using rich_leaf_ind.
  - rewrite (equal_to_leaves a b x y La Lb), val_eqb_nilp, <- !rnilp_nilp.
    rewrite (leaf_to_clvm a x La), (leaf_to_clvm b y Lb).
    destruct (rnilp a), (rnilp b); reflexivity.
  - rewrite (proj2 (equal_to_cons_leaf b1 b2 a x La)), (leaf_to_clvm a x La). reflexivity.
  - rewrite (proj1 (equal_to_cons_leaf a1 a2 b y Lb)), (leaf_to_clvm b y Lb). reflexivity.
  - cbn [equal_to rnilp andb orb to_clvm val_eqb]. rewrite IH1, IH2. reflexivity.
Qed.

Theorem eq_iff_bytes : forall a b, equal_to a b = true <-> to_clvm true a = to_clvm true b.
Proof. intros a b. rewrite equal_to_val_eqb. apply val_eqb_eq. Qed.

Fixpoint frontier (v : val) : list bytes :=
  match v with Atom x => [x] | Cons a b => frontier a ++ frontier b end.

(* Integer 0 is the one value whose Hash bytes, [0], are not its encoding, []. *)
Lemma hash_stream_frontier r : no_int0 r = true -> hash_stream r = frontier (to_clvm true r).
Proof.
  induction r as [|a IHa b IHb|z|q x|x]; cbn [no_int0 hash_stream to_clvm frontier andb]; intros H;
    try reflexivity.
  - apply andb_true_iff in H. destruct H as [Ha Hb]. rewrite (IHa Ha), (IHb Hb). reflexivity.
  - apply negb_true_iff in H. rewrite H. reflexivity.
Qed.

Lemma to_clvm_hash_stream : forall a b, no_int0 a = true -> no_int0 b = true ->
  to_clvm true a = to_clvm true b -> hash_stream a = hash_stream b.
Proof.
  intros a b Ha Hb E. rewrite (hash_stream_frontier a Ha), (hash_stream_frontier b Hb), E. reflexivity.
Qed.

Lemma from_clvm_no_int0 v : no_int0 (from_clvm true v) = true.
Proof.
  induction v as [b|a IHa d IHd]; cbn [from_clvm no_int0].
  - apply from_clvm_atom_spec. reflexivity.
  - rewrite IHa, IHd. reflexivity.
Qed.
