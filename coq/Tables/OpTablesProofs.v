(* Lifting of the finite table checks to statements over all names / atoms. *)
From CV Require Import Base.Prelude Gen.OpTables Tables.OpTablesModel.

Lemma assoc_last_in {V} (l : list (bytes * V)) k v :
  assoc_last bytes_eqb l k = Some v -> In (k, v) l.
Proof.
  induction l as [|[k' v'] r IH]; cbn; [discriminate|].
  destruct (assoc_last bytes_eqb r k) as [v''|].
  - intros [= ->]. right. apply IH. reflexivity.
  - destruct (bytes_eqb k' k) eqn:Ek; [|discriminate].
    apply bytes_eqb_eq in Ek. intros [= ->]. left. congruence.
Qed.

(* keyword_from_atom ver and keyword_to_atom ver are this lookup in from_atom_rows ver and in
   to_atom_rows ver, prim_lookup is it in Some modern_prims: what a check has established of every
   row holds of every successful lookup. *)
Lemma checked_lookup {V} (f : bytes * V -> bool) rows l k v :
  rows = Some l -> forallb f l = true ->
  match rows with Some l' => assoc_last bytes_eqb l' k | None => None end = Some v ->
  f (k, v) = true.
Proof.
  intros -> Hf E. apply assoc_last_in in E. rewrite forallb_forall in Hf. exact (Hf _ E).
Qed.

Lemma inverse_lift ver : check_inverse_version ver = true ->
  forall a n, keyword_from_atom ver a = Some n <-> keyword_to_atom ver n = Some a.
Proof.
  unfold check_inverse_version. intros H a n.
  destruct (from_atom_rows ver) as [fr|] eqn:Ef; [|discriminate].
  destruct (to_atom_rows ver) as [tr|] eqn:Et; [|discriminate].
  apply andb_true_iff in H. destruct H as [H1 H2]. split; intros E.
  - pose proof (checked_lookup _ _ _ _ _ Ef H1 E) as C. cbv beta iota in C. rewrite E in C.
    destruct (keyword_to_atom ver n) as [a'|]; [|discriminate]. apply bytes_eqb_eq in C. congruence.
  - pose proof (checked_lookup _ _ _ _ _ Et H2 E) as C. cbv beta iota in C. rewrite E in C.
    destruct (keyword_from_atom ver a) as [n'|]; [|discriminate]. apply bytes_eqb_eq in C. congruence.
Qed.

Lemma monotone_lift v w : check_monotone v w = true ->
  (forall a n, keyword_from_atom v a = Some n -> keyword_from_atom w a = Some n) /\
  (forall n a, keyword_to_atom v n = Some a -> keyword_to_atom w n = Some a).
Proof.
  unfold check_monotone. intros H.
  destruct (from_atom_rows v) as [fr|] eqn:Ef; [|discriminate].
  destruct (to_atom_rows v) as [tr|] eqn:Et; [|discriminate].
  apply andb_true_iff in H. destruct H as [H1 H2]. split.
  - intros a n E. pose proof (checked_lookup _ _ _ _ _ Ef H1 E) as C. cbv beta iota in C. rewrite E in C.
    destruct (keyword_from_atom w a) as [y|]; [|discriminate]. apply bytes_eqb_eq in C. congruence.
  - intros n a E. pose proof (checked_lookup _ _ _ _ _ Et H2 E) as C. cbv beta iota in C. rewrite E in C.
    destruct (keyword_to_atom w n) as [y|]; [|discriminate]. apply bytes_eqb_eq in C. congruence.
Qed.

Lemma implemented_lift ver : check_implemented ver = true ->
  forall a n, keyword_from_atom ver a = Some n ->
    opcode_canonical a = true /\ implemented ver (be_val a) = true.
Proof.
  unfold check_implemented. intros H a n E.
  destruct (from_atom_rows ver) as [fr|] eqn:Ef; [|discriminate].
  apply andb_true_iff. exact (checked_lookup _ _ _ _ _ Ef H E).
Qed.

Lemma classic_to_modern_lift : check_classic_to_modern = true ->
  forall v n ver, In (v, n, ver) kw_pairs -> prim_lookup n = Some (Z.of_N (be_val v)).
Proof.
  unfold check_classic_to_modern. intros H v n ver Hin.
  rewrite forallb_forall in H. specialize (H _ Hin). cbv beta iota in H.
  destruct (prim_lookup n) as [z|]; [|discriminate]. apply Z.eqb_eq in H. congruence.
Qed.

Lemma modern_to_classic_lift : check_modern_to_classic = true ->
  forall n z, prim_lookup n = Some z ->
    exists v, keyword_to_atom operators_latest_version n = Some v /\ z = Z.of_N (be_val v).
Proof.
  unfold check_modern_to_classic. intros H n z E.
  pose proof (checked_lookup _ (Some modern_prims) _ _ _ eq_refl H E) as C. cbv beta iota in C.
  destruct (keyword_to_atom operators_latest_version n) as [v|]; [|discriminate].
  exists v. split; [reflexivity|]. apply Z.eqb_eq in C. exact C.
Qed.
