(* Environment paths: clvmr traverse_path semantics (reference) and the composition of paths (papp). *)
From CV Require Import Base.Prelude Base.Val Base.Bytes.

(* bits of the path are consumed least-significant first; the most significant set bit is the sentinel *)
Fixpoint traverse_pos (p : positive) (e : val) : res val :=
  match p with
  | xH => Ok e
  | xO q => match e with Cons a _ => traverse_pos q a | Atom _ => Fail end
  | xI q => match e with Cons _ b => traverse_pos q b | Atom _ => Fail end
  end.

Definition traverse_N (n : N) (e : val) : res val :=
  match n with N0 => Ok nilv | Npos p => traverse_pos p e end.

(* clvmr traverse_path on the raw path atom: leading zero bytes are skipped, all-zero or empty is nil,
   i.e. only the unsigned big-endian value of the atom matters *)
Definition traverse (b : bytes) (e : val) : res val := traverse_N (be_unsigned b) e.

(* path composition: first follow p, then q *)
Fixpoint papp (p q : positive) : positive :=
  match p with xH => q | xO r => xO (papp r q) | xI r => xI (papp r q) end.

Lemma traverse_papp p q e :
  traverse_pos (papp p q) e = res_bind (traverse_pos p e) (traverse_pos q).
Proof.
  revert e; induction p as [r IH|r IH|]; intros e; cbn [papp traverse_pos res_bind].
  - destruct e; [reflexivity|apply IH].
  - destruct e; [reflexivity|apply IH].
  - reflexivity.
Qed.
