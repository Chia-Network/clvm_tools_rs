(* classic/clvm_tools/node_path.rs compose_paths: the shift / mask loop, over N, and its meaning:
   composing two paths is appending their step lists. *)
From CV Require Import Base.Prelude Base.NLemmas Clvm.Path.

Fixpoint cp_loop_n (fuel : nat) (temp path1 mask : N) : N * N :=
  match fuel with
  | O => (path1, mask)
  | S f => if 1 <? temp then cp_loop_n f (N.shiftr temp 1) (N.shiftl path1 1) (N.shiftl mask 1)
           else (path1, mask)
  end.
Definition compose_paths_n (p0 p1 : N) : N :=
  let '(p1', mask) := cp_loop_n (N.to_nat (N.size p0)) p0 p1 1 in
  N.lor p1' (N.land p0 (mask - 1)).

Fixpoint plen (p : positive) : nat :=
  match p with xH => O | xO r => S (plen r) | xI r => S (plen r) end.

Lemma cp_loop_spec : forall p fuel a m, (plen p < fuel)%nat ->
  cp_loop_n fuel (Npos p) a m = (N.shiftl a (N.of_nat (plen p)), N.shiftl m (N.of_nat (plen p))).
Proof.
  induction p as [r IH|r IH|]; intros [|f] a m Hf; cbn [plen] in *; try lia.
  - change (cp_loop_n (S f) (N.pos r~1) a m) with (cp_loop_n f (N.pos r) (N.shiftl a 1) (N.shiftl m 1)).
    rewrite IH, !N.shiftl_shiftl by lia. f_equal; f_equal; lia.
  - change (cp_loop_n (S f) (N.pos r~0) a m) with (cp_loop_n f (N.pos r) (N.shiftl a 1) (N.shiftl m 1)).
    rewrite IH, !N.shiftl_shiftl by lia. f_equal; f_equal; lia.
  - rewrite !N.shiftl_0_r. reflexivity.
Qed.

Lemma plen_size p : (plen p < N.to_nat (N.size (Npos p)))%nat.
Proof.
  cbn [N.size]. induction p; cbn [plen Pos.size]; lia.
Qed.

Lemma plen_bounds p : 2 ^ N.of_nat (plen p) <= Npos p < 2 ^ N.of_nat (S (plen p)).
Proof.
  induction p as [r IH|r IH|]; cbn [plen]; rewrite ?Nat2N.inj_succ, ?N.pow_succ_r' in *; try lia.
Qed.

(* q shifted over the steps of p, p without its sentinel bit below *)
Lemma papp_val p q : Npos (papp p q) = Npos q * 2 ^ N.of_nat (plen p) + (Npos p - 2 ^ N.of_nat (plen p)).
Proof.
  induction p as [r IH|r IH|]; cbn [papp plen]; rewrite ?Nat2N.inj_succ, ?N.pow_succ_r';
    try pose proof (plen_bounds r); lia.
Qed.

Theorem compose_paths_spec : forall p q, compose_paths_n (Npos p) (Npos q) = Npos (papp p q).
Proof.
  intros p q. unfold compose_paths_n.
  rewrite cp_loop_spec by apply plen_size.
  rewrite papp_val. pose proof (plen_bounds p) as [Hlo Hhi]. rewrite Nat2N.inj_succ, N.pow_succ_r' in Hhi.
  set (k := N.of_nat (plen p)) in *.
  (* the mask is 2 ^ k: `land (mask - 1)` takes the sentinel bit off p, and the shifted q lies above what is left *)
  rewrite N.shiftl_1_l, N.shiftl_mul_pow2, land_low.
  replace (N.pos p mod 2 ^ k) with (N.pos p - 2 ^ k) by (apply N.mod_unique with (q := 1); lia).
  apply lor_add_low with (k := k); [lia|]. apply N.mod_mul. lia.
Qed.

Corollary compose_paths_traverse : forall p q e,
  traverse_N (compose_paths_n (Npos p) (Npos q)) e = res_bind (traverse_pos p e) (traverse_pos q).
Proof. intros. rewrite compose_paths_spec. apply traverse_papp. Qed.
