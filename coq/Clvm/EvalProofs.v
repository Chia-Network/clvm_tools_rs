(* The consensus evaluation relation of Clvm/Eval.v: more fuel, same value; and the relation without its fuel
   (evals, evals_list): what a path, a quoted form, an operator call and an operand list evaluate to. *)
From CV Require Import Base.Prelude Base.Val Clvm.Path Clvm.Eval Clvm.Ops.

Lemma eval_list_impl (ev ev' : val -> res val) l :
  (forall x v, In x (args_list l) -> ev x = Ok v -> ev' x = Ok v) ->
  forall vs, eval_list ev l = Ok vs -> eval_list ev' l = Ok vs.
Proof.
  induction l as [b|x _ r IHr]; intros Hev vs H; cbn [eval_list args_list] in *; [exact H|].
  destruct (eval_list ev r) as [vr| |]; try discriminate.
  rewrite (IHr (fun y v Hy => Hev y v (or_intror Hy)) vr eq_refl).
  destruct (ev x) as [vx| |] eqn:Ex; try discriminate.
  rewrite (Hev x vx (or_introl eq_refl) Ex). exact H.
Qed.

Section Eval.
Variable opf : bytes -> val -> option val.
Notation eval := (eval opf).

Lemma eval_mono : forall n p e v, eval n p e = Ok v -> forall m, (n <= m)%nat -> eval m p e = Ok v.
Proof.
  induction n as [|n IH]; intros p e v H m Hm; [discriminate|].
  destruct m as [|m]; [lia|]. apply le_S_n in Hm.
  cbn [Eval.eval] in *.
  destruct p as [b|[op|x t] args].
  - exact H.
  - destruct (bytes_eqb op quote_atom); [exact H|].
    destruct (eval_list (fun x => eval n x e) args) as [vs| |] eqn:El; try discriminate.
    rewrite (eval_list_impl _ (fun x => eval m x e) args (fun x vx _ Hx => IH x e vx Hx m Hm) vs El).
    (* the operator applied: only apply evaluates again *)
    destruct (bytes_eqb op apply_atom); [|exact H].
    destruct (args_n 2 vs) as [[|q [|e' [|? ?]]]|]; try discriminate. exact (IH q e' v H m Hm).
  - destruct x as [opx|x1 x2]; [|discriminate H]. destruct t as [tb|t1 t2]; [|discriminate H].
    destruct (bytes_eqb opx apply_atom); [|exact H].
    destruct (args_n 2 args) as [[|q [|e' [|? ?]]]|]; try discriminate. exact (IH q e' v H m Hm).
Qed.

Lemma eval_list_mono n m e l vs : (n <= m)%nat ->
  eval_list (fun x => eval n x e) l = Ok vs -> eval_list (fun x => eval m x e) l = Ok vs.
Proof. intros Hle. apply eval_list_impl. intros x v _ Hx. exact (eval_mono n x e v Hx m Hle). Qed.

Lemma eval_det n m p e v w : eval n p e = Ok v -> eval m p e = Ok w -> v = w.
Proof.
  intros H1 H2.
  apply eval_mono with (m := Nat.max n m) in H1, H2; [congruence|apply Nat.le_max_r|apply Nat.le_max_l].
Qed.

Definition evals (p e v : val) : Prop := exists n, eval n p e = Ok v.

Fixpoint evals_list (l e vs : val) : Prop :=
  match l with
  | Atom b => b = [] /\ vs = nilv
  | Cons x r => exists v vr, evals x e v /\ evals_list r e vr /\ vs = Cons v vr
  end.

Lemma evals_list_spec l e : forall vs,
  evals_list l e vs <-> exists n, eval_list (fun x => eval n x e) l = Ok vs.
Proof.
  induction l as [b|x _ r IHr]; intros vs; cbn [evals_list eval_list].
  - split.
    + intros [-> ->]. exists 0%nat. reflexivity.
    + intros [_ H]. destruct b; [|discriminate]. injection H as <-. split; reflexivity.
  - split.
    + intros (v & vr & [n Hx] & Hr & ->). apply IHr in Hr as [m Hr]. exists (Nat.max n m).
      rewrite (eval_list_mono m _ e r vr (Nat.le_max_r n m) Hr).
      rewrite (eval_mono n x e v Hx _ (Nat.le_max_l n m)). reflexivity.
    + intros [n H].
      destruct (eval_list (fun x0 => eval n x0 e) r) as [vr| |] eqn:Er; try discriminate.
      destruct (eval n x e) as [v| |] eqn:Ex; try discriminate. injection H as <-.
      exists v, vr. split; [exists n; exact Ex|]. split; [apply IHr; exists n; exact Er|reflexivity].
Qed.

Lemma evals_path b e v : evals (Atom b) e v <-> traverse b e = Ok v.
Proof.
  split.
  - intros [[|n] H]; [discriminate|exact H].
  - intros H. exists 1%nat. exact H.
Qed.

Lemma evals_quote args e v : evals (Cons (Atom quote_atom) args) e v <-> v = args.
Proof.
  split.
  - intros [[|n] H]; [discriminate|]. injection H as <-. reflexivity.
  - intros ->. exists 1%nat. reflexivity.
Qed.

(* ((X) . args): the operands are passed unevaluated, the environment is not looked at *)
Lemma evals_pair_head x t args e e' v : evals (Cons (Cons x t) args) e v -> evals (Cons (Cons x t) args) e' v.
Proof. intros [[|n] H]; [discriminate|]. exists (S n). exact H. Qed.

Lemma evals_call op args e v : bytes_eqb op quote_atom = false ->
  evals (Cons (Atom op) args) e v <->
  exists vs, evals_list args e vs /\
    if bytes_eqb op apply_atom then exists q e', args_n 2 vs = Some [q; e'] /\ evals q e' v
    else opf op vs = Some v.
Proof.
  intros Hq. split.
  - intros [[|n] H]; [discriminate|]. cbn [Eval.eval] in H. rewrite Hq in H.
    destruct (eval_list (fun x => eval n x e) args) as [vs| |] eqn:El; try discriminate.
    exists vs. split; [apply evals_list_spec; exists n; exact El|].
    destruct (bytes_eqb op apply_atom).
    + destruct (args_n 2 vs) as [[|q [|e' [|? ?]]]|]; try discriminate.
      exists q, e'. split; [reflexivity|exists n; exact H].
    + destruct (opf op vs); [|discriminate]. injection H as ->. reflexivity.
  - intros (vs & Hvs & Hop). apply evals_list_spec in Hvs as [n Hvs].
    destruct (bytes_eqb op apply_atom) eqn:Ea.
    + destruct Hop as (q & e' & Eargs & [m Hv]). exists (S (Nat.max n m)).
      cbn [Eval.eval]. rewrite Hq, Ea.
      rewrite (eval_list_mono n _ e args vs (Nat.le_max_l n m) Hvs), Eargs.
      exact (eval_mono m q e' v Hv _ (Nat.le_max_r n m)).
    + exists (S n). cbn [Eval.eval]. rewrite Hq, Ea, Hvs, Hop. reflexivity.
Qed.

Lemma evals_op op args e v : bytes_eqb op quote_atom = false -> bytes_eqb op apply_atom = false ->
  evals (Cons (Atom op) args) e v <-> exists vs, evals_list args e vs /\ opf op vs = Some v.
Proof. intros Hq Ha. rewrite evals_call by exact Hq. rewrite Ha. reflexivity. Qed.

Lemma evals_apply args e v :
  evals (Cons (Atom apply_atom) args) e v <->
  exists vs, evals_list args e vs /\ exists q e', args_n 2 vs = Some [q; e'] /\ evals q e' v.
Proof. apply evals_call. reflexivity. Qed.

Lemma evals_a_q_inv s a e v : evals (Cons (Atom [2]) (Cons (Cons (Atom [1]) s) (Cons a nilv))) e v ->
  exists ea, evals a e ea /\ evals s ea v.
Proof.
  intros H. apply evals_apply in H as (vs & Hvs & q & e' & Eargs & Hv). cbn [evals_list] in Hvs.
  destruct Hvs as (vq & ? & Hq & (ea & ? & Ha & [_ ->] & ->) & ->).
  apply evals_quote in Hq. subst vq. injection Eargs as <- <-. exists ea. auto.
Qed.
End Eval.
