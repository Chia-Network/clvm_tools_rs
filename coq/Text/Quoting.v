(* Quoting and hex spelling of atoms in both syntaxes, and the readers' inverse functions:
   - modern printer (compiler/sexp.rs Display for SExp::QuotedString: printable -> "..." with
     escape_quote(q, s), otherwise 0x + hex) and modern reader (QuotedText / QuotedEscaped states,
     from_hex);
   - classic writer (ir/writer.rs -> Bytes::to_formal_string = pybytes_repr(b, dquoted = true,
     full_repr = FORMAL_STRING_FULL_REPR from the source)) and classic reader (ir/reader.rs
     consume_quoted). *)
From CV Require Import Base.Prelude Base.Val Gen.Consts.
From Coq Require Import ZifyN.

Definition BS : N := 92.    (* backslash *)
Definition DQ : N := 34.    (* double quote *)

(* insert a backslash before every character for which esc is true *)
Fixpoint escape (esc : N -> bool) (s : bytes) : bytes :=
  match s with
  | [] => []
  | c :: r => if esc c then BS :: c :: escape esc r else c :: escape esc r
  end.

(* the readers' loop: a backslash makes the next character literal, the terminator ends the string *)
Fixpoint read_quoted (fuel : nat) (term : N) (text : bytes) (acc : bytes) : option (bytes * bytes) :=
  match fuel with
  | O => None
  | S f =>
      match text with
      | [] => None                                   (* unterminated *)
      | c :: r =>
          if c =? BS then
            match r with
            | [] => None
            | d :: r' => read_quoted f term r' (acc ++ [d])
            end
          else if c =? term then Some (acc, r)
          else read_quoted f term r (acc ++ [c])
      end
  end.

(* One round of the loop per character of s, escaped or not, and one for the terminator. *)
Lemma read_quoted_escape : forall esc term s rest acc fuel,
  (forall c, In c s -> c = term \/ c = BS -> esc c = true) ->
  term <> BS ->
  (length s < fuel)%nat ->
  read_quoted fuel term (escape esc s ++ term :: rest) acc = Some (acc ++ s, rest).
Proof.
  induction s as [|c r IH]; intros rest acc [|f] He Hne Hf; cbn in Hf; try lia.
  - cbn [escape app read_quoted].
    destruct (N.eqb_spec term BS); [contradiction|].
    rewrite N.eqb_refl, app_nil_r. reflexivity.
  - replace (acc ++ c :: r) with ((acc ++ [c]) ++ r) by (rewrite <- app_assoc; reflexivity).
    rewrite <- (IH rest (acc ++ [c]) f); [|intros d Hd; apply He; right; exact Hd|exact Hne|lia].
    specialize (He c (or_introl eq_refl)).
    cbn [escape]. destruct (esc c); cbn [app read_quoted].
    + rewrite N.eqb_refl. reflexivity.
    + destruct (N.eqb_spec c BS) as [E|_]; [discriminate (He (or_intror E))|].
      destruct (N.eqb_spec c term) as [E|_]; [discriminate (He (or_introl E))|].
      reflexivity.
Qed.

Definition hexdigit (d : N) : N := if d <? 10 then 48 + d else 87 + d.     (* '0'.. / 'a'.. *)
Definition unhexdigit (c : N) : option N :=
  if (48 <=? c) && (c <=? 57) then Some (c - 48)
  else if (97 <=? c) && (c <=? 102) then Some (c - 87)
  else if (65 <=? c) && (c <=? 70) then Some (c - 55)
  else None.

Fixpoint hex_encode (s : bytes) : bytes :=
  match s with [] => [] | b :: r => hexdigit (b / 16) :: hexdigit (b mod 16) :: hex_encode r end.
Fixpoint hex_decode (t : bytes) : option bytes :=
  match t with
  | [] => Some []
  | h :: l :: r => match unhexdigit h, unhexdigit l, hex_decode r with
                   | Some a, Some b, Some rest => Some (a * 16 + b :: rest)
                   | _, _, _ => None
                   end
  | [_] => None
  end.

Lemma unhex_hex d : d < 16 -> unhexdigit (hexdigit d) = Some d.
Proof.
  intros H. unfold hexdigit, unhexdigit.
  destruct (N.ltb_spec d 10).
  - destruct (N.leb_spec 48 (48 + d)), (N.leb_spec (48 + d) 57); try lia.
    cbn [andb]. f_equal. lia.
  - destruct (N.leb_spec (87 + d) 57); [lia|]. rewrite andb_false_r.
    destruct (N.leb_spec 97 (87 + d)), (N.leb_spec (87 + d) 102); try lia.
    cbn [andb]. f_equal. lia.
Qed.

Theorem hex_roundtrip : forall s, wf_bytes s = true -> hex_decode (hex_encode s) = Some s.
Proof.
  induction s as [|b r IH]; intros Hw; [reflexivity|].
  apply wf_bytes_cons in Hw. destruct Hw as [Hb Hr].
  cbn [hex_encode hex_decode]. rewrite !unhex_hex by lia. rewrite (IH Hr). f_equal. f_equal. lia.
Qed.

Definition printable_char_q (ch : N) : bool :=
  negb ((ch <? 32) || (126 <? ch) || (ch =? DQ) || (ch =? BS)).
Definition printable_q (s : bytes) : bool := forallb printable_char_q s.

Inductive token := TQuoted (body : bytes) | THex (digits : bytes).

(* Display for SExp::QuotedString(q, s) *)
Definition print_quoted (q : N) (s : bytes) : token :=
  if printable_q s then TQuoted (escape (fun c => c =? q) s) else THex (hex_encode s).

(* the reader on that token: the text between the double quotes, or the hex digits after 0x *)
Definition read_token (t : token) : option bytes :=
  match t with
  | TQuoted body => match read_quoted (2 * length body + 3) DQ (body ++ [DQ]) [] with
                    | Some (s, []) => Some s
                    | _ => None
                    end
  | THex d => hex_decode d
  end.

Lemma escape_length esc s : (length (escape esc s) <= 2 * length s)%nat.
Proof. induction s as [|c r IH]; cbn; [lia|]. destruct (esc c); cbn; lia. Qed.

Lemma escape_grows esc s : (length s <= length (escape esc s))%nat.
Proof. induction s as [|c r IH]; cbn; [lia|]. destruct (esc c); cbn; lia. Qed.

Lemma read_token_escape esc s :
  (forall c, In c s -> c = DQ \/ c = BS -> esc c = true) ->
  read_token (TQuoted (escape esc s)) = Some s.
Proof.
  intros He. cbn [read_token].
  rewrite (read_quoted_escape esc DQ s [] []); [reflexivity|exact He|discriminate|].
  pose proof (escape_grows esc s). lia.
Qed.

Lemma printable_no_dq_bs s c : printable_q s = true -> In c s -> c <> DQ /\ c <> BS.
Proof.
  unfold printable_q. rewrite forallb_forall. intros H Hin. specialize (H c Hin).
  unfold printable_char_q in H. rewrite negb_true_iff, !orb_false_iff, !N.eqb_neq in H. tauto.
Qed.

(* what the modern printer writes for a quoted string / hex constant, the modern reader reads back *)
Theorem modern_quoted_roundtrip : forall q s, wf_bytes s = true -> read_token (print_quoted q s) = Some s.
Proof.
  intros q s Hw. unfold print_quoted. destruct (printable_q s) eqn:Hp.
  - (* a printable string has no double quote or backslash to escape *)
    apply read_token_escape. intros c Hin.
    destruct (printable_no_dq_bs s c Hp Hin). tauto.
  - apply hex_roundtrip. exact Hw.
Qed.

(* pybytes_repr(b, dquoted = true, full_repr) restricted to the characters ir_for_atom lets through
   (binutils.rs PRINTABLE_CHARS: no control characters, no double quote, nothing >= 0x7f) *)
Definition classic_printable_char (c : N) : bool := (32 <=? c) && (c <? 127) && negb (c =? DQ).
Definition classic_printable (s : bytes) : bool := forallb classic_printable_char s.

Definition formal_string_body (s : bytes) : bytes :=
  escape (fun c => (c =? DQ) || ((c =? BS) && FORMAL_STRING_FULL_REPR)) s.

Definition classic_read_quoted (body : bytes) : option bytes :=
  match read_quoted (2 * length body + 3) DQ (body ++ [DQ]) [] with
  | Some (s, []) => Some s
  | _ => None
  end.

Theorem classic_quoted_roundtrip : forall s, classic_printable s = true ->
  classic_read_quoted (formal_string_body s) = Some s.
Proof.
  intros s _. change (read_token (TQuoted (formal_string_body s)) = Some s).
  apply read_token_escape.
  (* the backslash is escaped because FORMAL_STRING_FULL_REPR is true in the source *)
  intros c _ [-> | ->]; reflexivity.
Qed.
