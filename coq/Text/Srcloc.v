(* compiler/srcloc.rs: locations, advance, ext (combine_src_location / add_onto), and the reader's
   span bookkeeping for barewords and quoted strings (compiler/sexp.rs parse_sexp_step). *)
From CV Require Import Base.Prelude.

Record loc := mkLoc { line : nat; col : nat; until : option (nat * nat) }.

Definition loc_min (a : loc) : nat * nat := (line a, col a).
Definition loc_max (a : loc) : nat * nat :=
  match until a with None => (line a, S (col a)) | Some u => u end.

Definition add_onto (x y : loc) : loc := mkLoc (line x) (col x) (Some (loc_max y)).

Definition ext (a b : loc) : loc :=
  if Nat.ltb (line a) (line b) then add_onto a b
  else if Nat.eqb (line a) (line b) then
    (if Nat.ltb (col a) (col b) then add_onto a b
     else if Nat.eqb (col a) (col b) then a
     else add_onto b a)
  else add_onto b a.

(* Srcloc::advance, tab-free text *)
Definition advance (cur : loc) (ch : N) : loc :=
  if ch =? 10 then mkLoc (S (line cur)) 1 (until cur) else mkLoc (line cur) (S (col cur)) (until cur).

(* the cursor is a point location *)
Definition point (l c : nat) : loc := mkLoc l c None.

(* Bareword(srcloc, word): reading the characters of a word one by one (none of them is whitespace,
   so none is a newline); the first character starts Bareword(cursor, [c]), each further one gives
   Bareword(srcloc.ext(cursor), word ++ [c]) *)
Fixpoint bareword_loc (start : loc) (l c : nat) (rest : list N) : loc :=
  (* start = the state's srcloc so far, (l, c) = cursor at the next character *)
  match rest with
  | [] => start
  | _ :: r => bareword_loc (ext start (point l c)) l (S c) r
  end.

Definition bareword_emit (l c : nat) (w : list N) : loc :=
  match w with
  | [] => point l c
  | _ :: r => bareword_loc (point l c) l (S c) r
  end.

Lemma ext_before a b :
  (line a < line b \/ line a = line b /\ col a < col b)%nat -> ext a b = add_onto a b.
Proof.
  unfold ext. intros [H|[Hl Hc]].
  - apply Nat.ltb_lt in H. rewrite H. reflexivity.
  - apply Nat.ltb_lt in Hc. rewrite Hl, Nat.ltb_irrefl, Nat.eqb_refl, Hc. reflexivity.
Qed.

Lemma bareword_loc_spec : forall rest start c,
  (col start < c)%nat -> loc_max start = (line start, c) ->
  let r := bareword_loc start (line start) c rest in
  loc_min r = loc_min start /\ loc_max r = (line start, c + length rest)%nat.
Proof.
  induction rest as [|x rest IH]; intros start c Hlt Hmax; cbn [bareword_loc length].
  - rewrite Hmax, Nat.add_0_r. split; reflexivity.
  - rewrite ext_before by (cbn; lia). rewrite Nat.add_succ_r.
    exact (IH (add_onto start (point (line start) c)) (S c) ltac:(cbn; lia) eq_refl).
Qed.

(* a bareword's location addresses exactly its characters: it starts at the column of the first
   character and ends just past the last one, on the same line *)
Theorem bareword_span : forall l c w, w <> [] ->
  loc_min (bareword_emit l c w) = (l, c) /\ loc_max (bareword_emit l c w) = (l, c + length w)%nat.
Proof.
  intros l c w Hw. destruct w as [|x r]; [contradiction|]. cbn [bareword_emit length].
  rewrite Nat.add_succ_r.
  exact (bareword_loc_spec r (point l c) (S c) (Nat.lt_succ_diag_r c) eq_refl).
Qed.

(* quoted string: QuotedString(srcloc.ext(&loc)) with srcloc the opening quote and loc the closing one *)
Theorem quoted_span_same_line : forall l c n,
  (0 < n)%nat ->
  let r := ext (point l c) (point l (c + n)) in
  loc_min r = (l, c) /\ loc_max r = (l, S (c + n)).
Proof.
  intros l c n Hn. rewrite ext_before by (cbn; lia). split; reflexivity.
Qed.

Theorem quoted_span_multi_line : forall l c l' c',
  (l < l')%nat ->
  let r := ext (point l c) (point l' c') in
  loc_min r = (l, c) /\ loc_max r = (l', S c').
Proof.
  intros l c l' c' Hl. rewrite ext_before by (cbn; lia). split; reflexivity.
Qed.
