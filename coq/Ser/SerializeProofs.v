(* serialize.rs as written (Ser/Serialize.v) against the reference codec: the explicit-stack encoder computes
   spec_encode; on byte streams the atom reader is the reference atom reader, so what decode accepts the
   reference decodes to the same value, encodings decode back, and their strict prefixes are rejected. *)
From CV Require Import Base.Prelude Base.Val Base.Bytes Base.NLemmas Base.BytesProofs Gen.Consts Ser.Serialize.

Lemma pick_class_spec size : pick_class size_classes size = spec_prefix size.
Proof.
  unfold size_classes, spec_prefix, pick_class.
  rewrite !N.shiftr_div_pow2, !(land_low _ 8), !N.mod_mod by discriminate.
  change (2 ^ 8) with 256. change (2 ^ 16) with 65536. change (2 ^ 24) with 16777216.
  change (65536 * 65536) with 4294967296.
  (* in each class the top of the size fits below the marker bits: its `mod 256` goes and `lor` adds; the
     bytes after it are the same terms on both sides *)
  destruct (N.ltb_spec size 64).
  { rewrite N.mod_small, (lor_add_low 128 _ 6) by (try apply N.div_lt_upper_bound; lia). reflexivity. }
  destruct (N.ltb_spec size 8192).
  { rewrite N.mod_small, (lor_add_low 192 _ 5) by (try apply N.div_lt_upper_bound; lia). reflexivity. }
  destruct (N.ltb_spec size 1048576).
  { rewrite N.mod_small, (lor_add_low 224 _ 4) by (try apply N.div_lt_upper_bound; lia). reflexivity. }
  destruct (N.ltb_spec size 134217728).
  { rewrite N.mod_small, (lor_add_low 240 _ 3) by (try apply N.div_lt_upper_bound; lia). reflexivity. }
  destruct (N.ltb_spec size 17179869184); [|reflexivity].
  rewrite N.mod_small, (lor_add_low 248 _ 2) by (try apply N.div_lt_upper_bound; lia). reflexivity.
Qed.

Lemma atom_size_blob_spec b :
  match atom_size_blob b with
  | Some (true, p) => spec_encode_atom b = Some (p ++ b)
  | Some (false, p) => spec_encode_atom b = Some p
  | None => spec_encode_atom b = None
  end.
Proof.
  unfold atom_size_blob, spec_encode_atom.
  destruct b as [|x [|y r]].
  - reflexivity.
  - unfold MAX_SINGLE_BYTE. destruct (N.leb_spec x 127), (N.ltb_spec x 128); try lia; [reflexivity|].
    rewrite pick_class_spec. destruct (spec_prefix _); reflexivity.
  - rewrite pick_class_spec. destruct (spec_prefix _); reflexivity.
Qed.

(* fuel is counted in bounds: a run that has 3 * val_size v steps more than f comes to what is below v on the
   stack with at least f left, and has written the encoding of v *)
Lemma enc_run_obj v : forall e, spec_encode v = Some e ->
  forall f f0 st out, (3 * val_size v + f <= f0)%nat ->
  exists f', (f <= f')%nat /\ enc_run f0 (EObj v :: st) out = enc_run f' st (out ++ e).
Proof.
  induction v as [b|a IHa d IHd]; intros e He f f0 st out Hf; cbn [spec_encode val_size] in *.
  - pose proof (atom_size_blob_spec b) as Hs.
    destruct f0 as [|f0]; [lia|]. cbn [enc_run].
    destruct (atom_size_blob b) as [[[|] p]|]; rewrite He in Hs; inversion Hs; subst e.
    + destruct f0 as [|f0]; [lia|]. exists f0. split; [lia|]. cbn [enc_run]. rewrite app_assoc. reflexivity.
    + exists f0. split; [lia|]. reflexivity.
  - destruct (spec_encode a) as [x|]; [|discriminate]. destruct (spec_encode d) as [y|]; [|discriminate].
    inversion He; subst e. destruct f0 as [|f0]; [lia|]. cbn [enc_run].
    destruct (IHa x eq_refl (3 * val_size d + f)%nat f0 (EObj d :: st) (out ++ [CONS_BOX_MARKER]))
      as (f1 & H1 & ->); [lia|].
    destruct (IHd y eq_refl f f1 st ((out ++ [CONS_BOX_MARKER]) ++ x) H1) as (f2 & H2 & ->).
    exists f2. split; [exact H2|]. rewrite <- !app_assoc. reflexivity.
Qed.

Theorem encode_spec v e : spec_encode v = Some e -> encode v = Some e.
Proof.
  intros He. unfold encode.
  destruct (enc_run_obj v e He 3%nat _ [] [] (le_n _)) as (f' & Hf & ->).
  destruct f'; [lia|]. reflexivity.
Qed.

Lemma int_from_bytes_be b : wf_bytes b = true -> (length b <= 7)%nat ->
  int_from_bytes b = Some (be_unsigned b).
Proof. intros Hw Hl. apply int_from_bytes_spec; [exact Hw|lia]. Qed.

(* a fact about each of the 255 first bytes (255 is the pair marker, which dec_run takes off before it calls
   atom_from_stream), by running the loop on each; strip_ok is the test run *)
Definition strip_ok (b : N) : bool :=
  let '(b', k) := strip_prefix 9 b DECODE_BIT_MASK_INIT DECODE_BIT_COUNT_INIT in
  (b' =? b - (256 - 2 ^ (8 - N.of_nat (leading_ones b)))) && (k =? N.of_nat (leading_ones b)).

Lemma strip_prefix_spec b : b < 255 ->
  strip_prefix 9 b DECODE_BIT_MASK_INIT DECODE_BIT_COUNT_INIT =
    (b - (256 - 2 ^ (8 - N.of_nat (leading_ones b))), N.of_nat (leading_ones b)).
Proof.
  intros H.
  assert (A : forallb strip_ok (nrange 255) = true) by (vm_compute; reflexivity).
  pose proof (proj1 (forallb_forall _ _) A b (nrange_in 255 b H)) as Hs. unfold strip_ok in Hs.
  destruct (strip_prefix 9 b DECODE_BIT_MASK_INIT DECODE_BIT_COUNT_INIT) as [b' k].
  apply andb_true_iff in Hs. destruct Hs as [S1 S2]. apply N.eqb_eq in S1, S2. congruence.
Qed.

Lemma atom_from_stream_spec b s v r :
  b < 255 -> wf_bytes (firstn (leading_ones b - 1) s) = true ->
  atom_from_stream b s = (Some v, r) <-> spec_decode_atom b s = Some (v, r).
Proof.
  intros Hb Hw. unfold atom_from_stream, spec_decode_atom, DECODE_EMPTY_BYTE, MAX_SINGLE_BYTE.
  destruct (N.eqb_spec b 128) as [->|Hn].
  { (* 128 has one leading one: no size byte, size 0; by computation *)
    change (spec_decode_atom 128 s) with
      (if N.of_nat (length s) <? 0 then None else Some (Atom (firstn 0 s), skipn 0 s)).
    rewrite (proj2 (N.ltb_ge _ 0)) by lia. split; intros E; inversion E; reflexivity. }
  destruct (N.leb_spec b 127), (N.ltb_spec b 128); try lia.
  { split; intros E; inversion E; reflexivity. }
  rewrite strip_prefix_spec by exact Hb.
  set (k := leading_ones b) in *.
  unfold DECODE_MAX_SIZE_BYTES.
  destruct (N.ltb_spec 6 (N.of_nat k)), (Nat.ltb_spec 6 k); try lia; [split; discriminate|].
  replace (N.to_nat (N.of_nat k - 1)) with (k - 1)%nat by lia.
  (* reading no size bytes and reading zero of them is the same: the reader's test `1 < bit_count` decides nothing *)
  replace (if 1 <? N.of_nat k then _ else _) with (stream_read (k - 1) s)
    by (destruct (N.ltb_spec 1 (N.of_nat k)); [|replace (k - 1)%nat with 0%nat by lia]; reflexivity).
  unfold stream_read. cbv beta iota zeta. set (first := b - _).
  destruct (Nat.eqb_spec (length (firstn (k - 1) s)) (k - 1)) as [Hlen|Hlen]; cbn [negb].
  2:{ rewrite firstn_length in Hlen. replace (1 <? N.of_nat k) with true by (symmetry; apply N.ltb_lt; lia).
      cbn [andb]. split; discriminate. }
  rewrite andb_false_r, int_from_bytes_be;
    [|cbn [wf_bytes]; rewrite Hw, andb_true_r; apply N.ltb_lt; subst first; lia|cbn [length]; lia].
  unfold DECODE_SIZE_LIMIT.
  destruct (17179869184 <=? _); [split; discriminate|]. destruct (_ <? _); [split; discriminate|].
  split; intros E; inversion E; reflexivity.
Qed.

Lemma firstn_skipn_app {A} (a b : list A) : firstn (length a) (a ++ b) = a /\ skipn (length a) (a ++ b) = b.
Proof.
  rewrite firstn_app, skipn_app, Nat.sub_diag, firstn_all, skipn_all. split; [apply app_nil_r|reflexivity].
Qed.

Lemma spec_decode_atom_byte b s : b < 128 -> spec_decode_atom b s = Some (Atom [b], s).
Proof. intros Hb. unfold spec_decode_atom. rewrite (proj2 (N.ltb_lt b 128) Hb). reflexivity. Qed.

Lemma spec_decode_atom_iff b s v r : 128 <= b ->
  spec_decode_atom b s = Some (v, r) <->
  exists bin blob, s = bin ++ blob ++ r /\ v = Atom blob /\
    (leading_ones b <= 6)%nat /\ length bin = (leading_ones b - 1)%nat /\
    be_unsigned (b - (256 - 2 ^ (8 - N.of_nat (leading_ones b))) :: bin) = N.of_nat (length blob) /\
    N.of_nat (length blob) < 17179869184.
Proof.
  intros Hb. unfold spec_decode_atom. rewrite (proj2 (N.ltb_ge b 128) Hb).
  set (k := leading_ones b). set (first := b - _). split.
  - destruct (Nat.ltb_spec 6 k); [discriminate|].
    destruct (Nat.eqb_spec (length (firstn (k - 1) s)) (k - 1)) as [Hl|]; [|discriminate]. cbn [negb].
    set (size := be_unsigned _).
    destruct (N.leb_spec 17179869184 size); [discriminate|].
    destruct (N.ltb_spec (N.of_nat (length (skipn (k - 1) s))) size); [discriminate|].
    intros E. inversion E. exists (firstn (k - 1) s), (firstn (N.to_nat size) (skipn (k - 1) s)).
    rewrite !firstn_skipn, (firstn_length_le (skipn _ s)) by lia. repeat split; try assumption; lia.
  - intros (bin & blob & -> & -> & Hk & Hl & Hsize & Hlim).
    destruct (Nat.ltb_spec 6 k); [lia|].
    rewrite <- Hl. destruct (firstn_skipn_app bin (blob ++ r)) as [-> ->].
    rewrite Nat.eqb_refl, Hsize. cbn [negb].
    destruct (N.leb_spec 17179869184 (N.of_nat (length blob))); [lia|].
    destruct (N.ltb_spec (N.of_nat (length (blob ++ r))) (N.of_nat (length blob))); [rewrite app_length in *; lia|].
    rewrite Nat2N.id. destruct (firstn_skipn_app blob r) as [-> ->]. reflexivity.
Qed.

Lemma spec_decode_atom_wf b s v r : spec_decode_atom b s = Some (v, r) -> wf_bytes s = true -> wf_bytes r = true.
Proof.
  destruct (N.lt_ge_cases b 128) as [Hb|Hb].
  - rewrite spec_decode_atom_byte by exact Hb. intros E; inversion E; auto.
  - intros H. apply spec_decode_atom_iff in H; [|exact Hb]. destruct H as (bin & blob & -> & _).
    rewrite !wf_bytes_app, !andb_true_iff. tauto.
Qed.

Lemma spec_decode_atom_extend b s t v r :
  spec_decode_atom b s = Some (v, r) -> spec_decode_atom b (s ++ t) = Some (v, r ++ t).
Proof.
  destruct (N.lt_ge_cases b 128) as [Hb|Hb].
  - rewrite !spec_decode_atom_byte by exact Hb. intros E; inversion E; reflexivity.
  - rewrite !spec_decode_atom_iff by exact Hb. intros (bin & blob & -> & H). exists bin, blob.
    rewrite <- !app_assoc. split; [reflexivity|exact H].
Qed.

(* a first byte with k leading ones, then a zero, then anything; k <= 5 because the largest class of spec_prefix
   has five size bytes (the readers admit six) *)
Lemma marker_byte k top : (1 <= k <= 5)%nat -> top < 2 ^ (7 - N.of_nat k) ->
  leading_ones (256 - 2 ^ (8 - N.of_nat k) + top) = k /\ 128 <= 256 - 2 ^ (8 - N.of_nat k) + top < 252.
Proof.
  intros Hk Ht. destruct k as [|[|[|[|[|[|k]]]]]]; try lia.
  (* lia does not evaluate a power whose exponent is a difference *)
  all: set (m := 256 - _); set (bound := 2 ^ _) in Ht; compute in m, bound; subst m bound.
  all: unfold leading_ones; rewrite !(proj2 (N.ltb_ge _ _)) by lia; rewrite (proj2 (N.ltb_lt _ _)) by lia.
  all: split; [reflexivity|lia].
Qed.

Lemma spec_prefix_shape size p : spec_prefix size = Some p ->
  exists k, (1 <= k <= 5)%nat /\ size / 256 ^ N.of_nat (k - 1) < 2 ^ (7 - N.of_nat k) /\ size < 17179869184 /\
    p = 256 - 2 ^ (8 - N.of_nat k) + size / 256 ^ N.of_nat (k - 1) :: low_bytes (k - 1) size.
Proof.
  unfold spec_prefix. intros H.
  destruct (N.ltb_spec size 64); [exists 1%nat|
  destruct (N.ltb_spec size 8192); [exists 2%nat|
  destruct (N.ltb_spec size 1048576); [exists 3%nat|
  destruct (N.ltb_spec size 134217728); [exists 4%nat|
  destruct (N.ltb_spec size 17179869184); [exists 5%nat|discriminate]]]]].
  (* the bound of the class is the product of the two powers, by evaluation *)
  all: inversion H; split; [lia|]; split; [apply N.div_lt_upper_bound; [discriminate|assumption]|]; split; [lia|].
  all: cbn [Nat.sub low_bytes]; change (256 ^ N.of_nat 0) with 1; rewrite N.div_1_r; reflexivity.
Qed.

Lemma spec_encode_atom_shape b e : spec_encode_atom b = Some e ->
  (exists x, b = [x] /\ x < 128 /\ e = [x]) \/
  exists p, spec_prefix (N.of_nat (length b)) = Some p /\ e = p ++ b.
Proof.
  unfold spec_encode_atom. intros He. destruct b as [|x [|y r]].
  - right. exists [128]. inversion He. split; reflexivity.
  - destruct (N.ltb_spec x 128); [left; exists x; inversion He; auto|right].
    destruct (spec_prefix 1) as [p|] eqn:Ep; [|discriminate]. exists p. inversion He. split; [exact Ep|reflexivity].
  - right. destruct (spec_prefix _) as [p|]; [|discriminate]. exists p. inversion He. split; reflexivity.
Qed.

(* the conjunct on the size bytes is what atom_from_stream_spec asks for *)
Lemma spec_decode_atom_encoded b e rest : spec_encode_atom b = Some e ->
  exists f tl, e = f :: tl /\ f < 255 /\ wf_bytes (firstn (leading_ones f - 1) (tl ++ rest)) = true /\
    spec_decode_atom f (tl ++ rest) = Some (Atom b, rest).
Proof.
  intros He.
  destruct (spec_encode_atom_shape b e He) as [(x & -> & Hx & ->)|(p & Hp & ->)].
  { exists x, []. split; [reflexivity|]. split; [lia|].
    unfold spec_decode_atom, leading_ones. rewrite (proj2 (N.ltb_lt x 128) Hx). auto. }
  destruct (spec_prefix_shape _ _ Hp) as (k & Hk & Htop & Hsize & ->).
  set (size := N.of_nat (length b)) in *. set (top := size / 256 ^ N.of_nat (k - 1)) in *.
  destruct (marker_byte k top Hk Htop) as [Hlo Hf]. set (m := 256 - _) in *.
  pose proof (firstn_skipn_app (low_bytes (k - 1) size) (b ++ rest)) as [Hfirst _].
  rewrite low_bytes_length in Hfirst.
  exists (m + top), (low_bytes (k - 1) size ++ b).
  rewrite <- app_assoc, Hlo, Hfirst. split; [reflexivity|]. split; [lia|]. split; [apply wf_low_bytes|].
  apply spec_decode_atom_iff; [lia|]. exists (low_bytes (k - 1) size), b.
  rewrite Hlo, low_bytes_length. fold m. rewrite (N.add_comm m), N.add_sub.
  unfold top. rewrite be_unsigned_low_bytes. repeat split; lia.
Qed.

(* three steps per byte are enough: an atom costs one read, a pair its marker's read and one DCons *)
Lemma dec_run_encoded v : forall e, spec_encode v = Some e ->
  forall f f0 ops vals rest, (3 * length e + f <= f0)%nat ->
  exists f', (f <= f')%nat /\ dec_run f0 (DRead :: ops) vals (e ++ rest) = dec_run f' ops (v :: vals) rest.
Proof.
  induction v as [b|a IHa d IHd]; intros e He f f0 ops vals rest Hf; cbn [spec_encode] in He.
  - destruct (spec_decode_atom_encoded b e rest He) as (x & tl & -> & Hx & Hw & Hd).
    apply atom_from_stream_spec in Hd; [|exact Hx|exact Hw].
    cbn [length] in Hf. destruct f0 as [|f0]; [lia|]. exists f0. split; [lia|].
    cbn [dec_run app]. unfold CONS_BOX_MARKER.
    destruct (N.eqb_spec x 255); [lia|]. rewrite Hd. reflexivity.
  - destruct (spec_encode a) as [x|]; [|discriminate]. destruct (spec_encode d) as [y|]; [|discriminate].
    inversion He; subst e. cbn [length app] in *. rewrite app_length in Hf.
    destruct f0 as [|f0]; [lia|]. cbn [dec_run]. change (255 =? CONS_BOX_MARKER) with true. cbv iota.
    rewrite <- app_assoc.
    destruct (IHa x eq_refl (3 * length y + S f)%nat f0 (DRead :: DCons :: ops) vals (y ++ rest))
      as (f1 & H1 & ->); [lia|].
    destruct (IHd y eq_refl (S f) f1 (DCons :: ops) (a :: vals) rest H1) as (f2 & H2 & ->).
    destruct f2 as [|f2]; [lia|]. exists f2. split; [lia|]. reflexivity.
Qed.

Theorem decode_encode v e rest : spec_encode v = Some e -> decode (e ++ rest) = Some (v, rest).
Proof.
  intros He. unfold decode.
  destruct (dec_run_encoded v e He 3%nat (3 * length (e ++ rest) + 3)%nat [] [] rest) as (f' & Hf & ->).
  { rewrite app_length. lia. }
  destruct f'; [lia|]. reflexivity.
Qed.

(* sexp_from_stream ignores the errors of single operations. exec_count: the height of the value stack after
   the pending operations when none of them fails *)
Fixpoint exec_count (c : nat) (ops : list dec_op) : option nat :=
  match ops with
  | [] => Some c
  | DRead :: r => exec_count (S c) r
  | DCons :: r => if (2 <=? c)%nat then exec_count (c - 1) r else None
  end.

Fixpoint dec_strict (fuel : nat) (ops : list dec_op) (vals : list val) (s : bytes) : option (list val * bytes) :=
  match fuel with
  | O => None
  | S f =>
      match ops with
      | [] => Some (vals, s)
      | DCons :: ops' =>
          match vals with
          | r :: l :: vs => dec_strict f ops' (Cons l r :: vs) s
          | _ => None
          end
      | DRead :: ops' =>
          match s with
          | [] => None
          | b :: s' =>
              if b =? CONS_BOX_MARKER then dec_strict f (DRead :: DRead :: DCons :: ops') vals s'
              else match atom_from_stream b s' with
                   | (Some v, s'') => dec_strict f ops' (v :: vals) s''
                   | (None, _) => None
                   end
          end
      end
  end.

(* A failed operation leaves the value stack lower than exec_count has it (c), a lower stack stays lower, and
   the run then cannot end with the one value. So a run that ends with a value met no failure, and the strict
   machine does the same. *)
Lemma lenient_strict_count : forall f ops vals s c vals' s',
  dec_run f ops vals s = Some (vals', s') -> vals' <> [] ->
  exec_count c ops = Some 1%nat -> (length vals <= c)%nat ->
  length vals = c /\ dec_strict f ops vals s = Some (vals', s').
Proof.
  induction f as [|f IH]; intros ops vals s c vals' s' Hr Hne He Hc; [discriminate|].
  cbn [dec_run] in Hr. cbn [dec_strict]. destruct ops as [|[|] ops']; cbn [exec_count] in He.
  - inversion Hr; inversion He; subst. split; [|reflexivity].
    destruct vals'; [contradiction|cbn [length] in *; lia].
  - destruct (Nat.leb_spec 2 c); [|discriminate].
    destruct vals as [|r [|l vs]]; cbn [length] in Hc;
      destruct (IH _ _ _ (c - 1)%nat _ _ Hr Hne He ltac:(cbn [length]; lia)) as [Hl Hs]; cbn [length] in *.
    + lia.
    + lia.
    + split; [lia|exact Hs].
  - destruct s as [|b s0]; [|destruct (b =? CONS_BOX_MARKER); [|destruct (atom_from_stream b s0) as [[v|] s2]]].
    + destruct (IH _ _ _ (S c) _ _ Hr Hne He (le_S _ _ Hc)). lia.
    + apply (IH _ _ _ c); assumption.
    + destruct (IH _ _ _ (S c) _ _ Hr Hne He (le_n_S _ _ Hc)) as [Hl Hs].
      split; [exact (eq_add_S _ _ Hl)|exact Hs].
    + destruct (IH _ _ _ (S c) _ _ Hr Hne He (le_S _ _ Hc)). lia.
Qed.

Lemma lenient_is_strict : forall f ops vals s vals' s',
  exec_count (length vals) ops = Some 1%nat ->
  dec_run f ops vals s = Some (vals', s') -> vals' <> [] ->
  dec_strict f ops vals s = Some (vals', s').
Proof.
  intros f ops vals s vals' s' He Hr Hne. exact (proj2 (lenient_strict_count _ _ _ _ _ _ _ Hr Hne He (le_n _))).
Qed.

Lemma spec_decode_extend : forall g s v r, spec_decode g s = Some (v, r) ->
  forall g' t, (g <= g')%nat -> spec_decode g' (s ++ t) = Some (v, r ++ t).
Proof.
  induction g as [|g IH]; intros s v r H g' t Hle; [discriminate|].
  destruct g' as [|g']; [lia|]. cbn [spec_decode] in *.
  destruct s as [|b s']; [discriminate|]. cbn [app].
  destruct (b =? 255); [|apply spec_decode_atom_extend; exact H].
  destruct (spec_decode g s') as [[l s1]|] eqn:E1; [|discriminate].
  destruct (spec_decode g s1) as [[r0 s2]|] eqn:E2; [|discriminate].
  inversion H; subst. rewrite (IH _ _ _ E1 g' t), (IH _ _ _ E2 g' t) by lia. reflexivity.
Qed.

Lemma spec_decode_mono g s v r : spec_decode g s = Some (v, r) ->
  forall g', (g <= g')%nat -> spec_decode g' s = Some (v, r).
Proof.
  intros H g' Hle. rewrite <- (app_nil_r s), <- (app_nil_r r). apply (spec_decode_extend g); assumption.
Qed.

Lemma strict_read : forall f ops vals s r,
  wf_bytes s = true -> dec_strict f (DRead :: ops) vals s = Some r ->
  exists v s1 f', (f' < f)%nat /\ (exists g, spec_decode g s = Some (v, s1)) /\
                  wf_bytes s1 = true /\ dec_strict f' ops (v :: vals) s1 = Some r.
Proof.
  (* a pair reads its second value with whatever fuel the first read left, hence induction along < *)
  induction f as [f IH] using (well_founded_induction lt_wf).
  intros ops vals s r Hw Hr. destruct f as [|f]; [discriminate|].
  cbn [dec_strict] in Hr. destruct s as [|b s0]; [discriminate|].
  apply wf_bytes_cons in Hw. destruct Hw as [Hb Hw0].
  unfold CONS_BOX_MARKER in Hr. destruct (N.eqb_spec b 255) as [->|Hn].
  - destruct (IH f ltac:(lia) _ _ _ _ Hw0 Hr) as (l & s1 & f1 & Hf1 & [g1 Hg1] & Hw1 & H1).
    destruct (IH f1 ltac:(lia) _ _ _ _ Hw1 H1) as (r0 & s2 & f2 & Hf2 & [g2 Hg2] & Hw2 & H2).
    destruct f2 as [|f2]; [discriminate|]. cbn [dec_strict] in H2.
    exists (Cons l r0), s2, f2. split; [lia|]. split; [|split; [exact Hw2|exact H2]].
    exists (S (g1 + g2)). cbn [spec_decode]. change (255 =? 255) with true. cbv iota.
    rewrite (spec_decode_mono _ _ _ _ Hg1 (g1 + g2)%nat) by lia.
    rewrite (spec_decode_mono _ _ _ _ Hg2 (g1 + g2)%nat) by lia. reflexivity.
  - destruct (atom_from_stream b s0) as [[v|] s2] eqn:Ea; [|discriminate].
    apply atom_from_stream_spec in Ea; [|lia|apply wf_bytes_firstn_skipn; exact Hw0].
    exists v, s2, f. split; [lia|]. split; [|split; [exact (spec_decode_atom_wf _ _ _ _ Ea Hw0)|exact Hr]].
    exists 1%nat. cbn [spec_decode]. destruct (N.eqb_spec b 255); [contradiction|exact Ea].
Qed.

Theorem decode_sound s v rest : wf_bytes s = true ->
  decode s = Some (v, rest) -> exists g, spec_decode g s = Some (v, rest).
Proof.
  intros Hw H. unfold decode in H.
  destruct (dec_run (3 * length s + 3) [DRead] [] s) as [[vals s']|] eqn:E; [|discriminate].
  destruct vals as [|v0 vs]; [discriminate|]. inversion H; subst v0 s'.
  pose proof (lenient_is_strict _ [DRead] [] s _ _ eq_refl E ltac:(discriminate)) as Hs.
  destruct (strict_read _ _ _ _ _ Hw Hs) as (v1 & s1 & f' & Hf & [g Hg] & Hw1 & H1).
  destruct f' as [|f']; [discriminate|]. cbn [dec_strict] in H1. inversion H1; subst.
  exists g. exact Hg.
Qed.

(* A prefix that decoded would, by decode_sound, decode in the reference as well, and then so would the
   whole encoding with the cut-off part left over; but the whole encoding decodes to v with nothing left. *)
Theorem truncated_rejected v e p t :
  spec_encode v = Some e -> e = p ++ t -> t <> [] -> wf_bytes e = true -> decode p = None.
Proof.
  intros He Hp Ht Hwf. destruct (decode p) as [[v' rest']|] eqn:Ed; [exfalso|reflexivity].
  assert (Hwp : wf_bytes p = true) by (subst e; rewrite wf_bytes_app in Hwf; apply andb_true_iff in Hwf; tauto).
  destruct (decode_sound p v' rest' Hwp Ed) as [g Hg].
  pose proof (decode_encode v e [] He) as Hfull. rewrite app_nil_r in Hfull.
  destruct (decode_sound e v [] Hwf Hfull) as [g' Hg'].
  pose proof (spec_decode_extend g p v' rest' Hg (Nat.max g g') t (Nat.le_max_l _ _)) as A. rewrite <- Hp in A.
  pose proof (spec_decode_mono g' e _ _ Hg' (Nat.max g g') (Nat.le_max_r _ _)) as B.
  rewrite A in B. destruct rest'; destruct t; try discriminate. apply Ht. reflexivity.
Qed.
