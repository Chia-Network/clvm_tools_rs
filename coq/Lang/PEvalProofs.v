From CV Require Import Base.Prelude Base.Val Lang.PEval.

Lemma map_opt_Forall2 {A B} (f : A -> option B) l ys :
  map_opt f l = Some ys <-> Forall2 (fun x y => f x = Some y) l ys.
Proof.
  split.
  - revert ys; induction l as [|x r IH]; intros ys E; cbn in E.
    + injection E as <-. constructor.
    + destruct (f x) as [y|] eqn:Ex; [|discriminate]. destruct (map_opt f r) as [yr|]; [|discriminate].
      injection E as <-. constructor; [exact Ex|apply IH; reflexivity].
  - induction 1 as [|x y r yr Hxy _ IH]; cbn; [reflexivity|]. rewrite Hxy, IH. reflexivity.
Qed.

Lemma Forall2_impl {A B} (P Q : A -> B -> Prop) l l' :
  (forall x y, P x y -> Q x y) -> Forall2 P l l' -> Forall2 Q l l'.
Proof. intros H. induction 1; constructor; auto. Qed.

Lemma Forall2_nth_error {A B} {R : A -> B -> Prop} {l l' k a b} :
  Forall2 R l l' -> nth_error l k = Some a -> nth_error l' k = Some b -> R a b.
Proof.
  intros H; revert k; induction H as [|x y r r' Hxy _ IH]; intros [|k] Ea Eb; cbn in *; try discriminate.
  - injection Ea as <-. injection Eb as <-. exact Hxy.
  - exact (IH k Ea Eb).
Qed.

Lemma map_opt_impl {A B} (f g : A -> option B) l ys :
  (forall x y, f x = Some y -> g x = Some y) -> map_opt f l = Some ys -> map_opt g l = Some ys.
Proof. rewrite !map_opt_Forall2. apply Forall2_impl. Qed.

Lemma map_opt_rel {A B C} (f : A -> option B) (g : A -> option C) (R : B -> C -> Prop) l ys zs :
  (forall x y z, f x = Some y -> g x = Some z -> R y z) ->
  map_opt f l = Some ys -> map_opt g l = Some zs -> Forall2 R ys zs.
Proof.
  rewrite !map_opt_Forall2. intros H Hf. revert zs.
  induction Hf as [|x y r yr Hxy _ IH]; intros zs Hg; inversion Hg; subst; constructor.
  - eapply H; eassumption.
  - apply IH. assumption.
Qed.

Lemma forallb_map_opt {A B} (p : B -> bool) (f : A -> option B) l ys :
  (forall x y, f x = Some y -> p y = true) -> map_opt f l = Some ys -> forallb p ys = true.
Proof.
  rewrite map_opt_Forall2. intros H.
  induction 1 as [|x y r yr Hxy _ IH]; cbn; [reflexivity|]. rewrite (H x y Hxy). exact IH.
Qed.

Lemma map_opt_ext {A B} (f g : A -> option B) l :
  (forall x, In x l -> f x = g x) -> map_opt f l = map_opt g l.
Proof.
  induction l as [|x r IH]; intros H; cbn; [reflexivity|].
  rewrite (H x (or_introl eq_refl)). rewrite IH; [reflexivity|]. intros x' Hin. apply H. right. exact Hin.
Qed.

Section Proofs.
  Variable opf : bytes -> val -> option val.
  Variable funs : list expr.
  Notation seval := (seval opf funs).
  Notation shrink := (shrink opf funs).

  Lemma seval_mono {f rho lv e v} f' : (f <= f')%nat -> seval f rho lv e = Some v -> seval f' rho lv e = Some v.
  Proof.
    revert f' rho lv e v. induction f as [|f IH]; intros f' rho lv e v Hle H; [discriminate|].
    destruct f' as [|f']; [lia|]. assert (Hle' : (f <= f')%nat) by lia.
    assert (Hl : forall args vs, map_opt (seval f rho lv) args = Some vs -> map_opt (seval f' rho lv) args = Some vs).
    { intros args vs. apply map_opt_impl. intros x y. apply IH. exact Hle'. }
    destruct e as [c|n|k|op args|c t e'|g args]; cbn [PEval.seval] in *; try exact H.
    - destruct (map_opt (seval f rho lv) args) as [vs|] eqn:E; [|discriminate].
      rewrite (Hl _ _ E). exact H.
    - destruct (seval f rho lv c) as [vc|] eqn:Ec; [|discriminate].
      rewrite (IH f' _ _ _ _ Hle' Ec). destruct (truthy vc); apply (IH f'); assumption.
    - destruct (map_opt (seval f rho lv) args) as [vs|] eqn:E; [|discriminate].
      rewrite (Hl _ _ E).
      destruct (nth_error funs g) as [body|]; [|discriminate]. apply (IH f'); assumption.
  Qed.

  (* seval with the fuel hidden. senv_ok and the conclusion of shrink_sound are this relation unfolded; the
     lemmas below build values of compound expressions from values of their parts, each finding the common
     fuel (the maximum) once *)
  Definition sevals (rho lv : list val) (e : expr) (v : val) : Prop := exists F, seval F rho lv e = Some v.

  Lemma sevals_det {rho lv e v v'} : sevals rho lv e v -> sevals rho lv e v' -> v = v'.
  Proof.
    intros [F H] [F' H'].
    apply (seval_mono (Nat.max F F')) in H; [|apply Nat.le_max_l].
    apply (seval_mono (Nat.max F F')) in H'; [|apply Nat.le_max_r].
    congruence.
  Qed.

  Lemma sevals_const rho lv c : sevals rho lv (EConst c) c.
  Proof. exists 1%nat. reflexivity. Qed.

  Lemma sevals_args {rho lv args vs} :
    Forall2 (sevals rho lv) args vs -> exists F, map_opt (seval F rho lv) args = Some vs.
  Proof.
    induction 1 as [|a va r vr [F1 H1] _ [F2 H2]].
    - exists 0%nat. reflexivity.
    - exists (Nat.max F1 F2). cbn.
      rewrite (seval_mono (Nat.max F1 F2) (Nat.le_max_l _ _) H1).
      apply (map_opt_impl _ (seval (Nat.max F1 F2) rho lv)) in H2.
      + rewrite H2. reflexivity.
      + intros x y. apply seval_mono, Nat.le_max_r.
  Qed.

  Lemma sevals_op {rho lv op args vs v} :
    Forall2 (sevals rho lv) args vs -> opf op (of_list vs) = Some v -> sevals rho lv (EOp op args) v.
  Proof.
    intros Ha Ho. destruct (sevals_args Ha) as [F HF].
    exists (S F). cbn. rewrite HF. exact Ho.
  Qed.

  Lemma sevals_if {rho lv c t e vc v} :
    sevals rho lv c vc -> sevals rho lv (if truthy vc then t else e) v -> sevals rho lv (EIf c t e) v.
  Proof.
    intros [F1 H1] [F2 H2]. exists (S (Nat.max F1 F2)). cbn.
    rewrite (seval_mono (Nat.max F1 F2) (Nat.le_max_l _ _) H1).
    apply (seval_mono (Nat.max F1 F2)) in H2; [|apply Nat.le_max_r].
    destruct (truthy vc); exact H2.
  Qed.

  Lemma sevals_consts {rho lv args cs} : map_opt const_of args = Some cs -> Forall2 (sevals rho lv) args cs.
  Proof.
    rewrite map_opt_Forall2. apply Forall2_impl.
    intros a c E. destruct a; try discriminate. injection E as <-. apply sevals_const.
  Qed.

  Definition consistent (known : list (option val)) (rho : list val) : Prop :=
    forall n v, nth_error known n = Some (Some v) -> nth_error rho n = Some v.

  Definition senv_ok (rho : list val) (senv : list expr) (lv : list val) : Prop :=
    Forall2 (fun e v => exists F, seval F rho [] e = Some v) senv lv.

  Lemma shrink_if {fs known senv c t e r} :
    shrink (S fs) known senv (EIf c t e) = Some r ->
    (exists vc, shrink fs known senv c = Some (EConst vc) /\ shrink fs known senv (if truthy vc then t else e) = Some r) \/
    (exists c' t' e', shrink fs known senv c = Some c' /\ shrink fs known senv t = Some t' /\
                      shrink fs known senv e = Some e' /\ r = EIf c' t' e').
  Proof.
    cbn [PEval.shrink]. intros H.
    destruct (shrink fs known senv c) as [c'|]; [|discriminate].
    destruct c' as [vc| | | | |].
    1: { left. exists vc. split; [reflexivity|]. destruct (truthy vc); exact H. }
    all: right.
    all: destruct (shrink fs known senv t) as [t'|]; [|discriminate].
    all: destruct (shrink fs known senv e) as [e'|]; [|discriminate].
    all: injection H as <-.
    all: repeat eexists.
  Qed.

  (* soundness of the evaluator: whenever the expression has a value, the residue has that value *)
  Theorem shrink_sound : forall fs known rho, consistent known rho ->
    forall senv e e' lv fv v,
    senv_ok rho senv lv -> shrink fs known senv e = Some e' -> seval fv rho lv e = Some v ->
    exists F, seval F rho [] e' = Some v.
  Proof.
    induction fs as [|fs IH]; intros known rho Hk senv e e' lv fv v Hs Hsh Hev; [discriminate|].
    destruct fv as [|fv]; [discriminate|].
    assert (IHe : forall a a' va, shrink fs known senv a = Some a' -> seval fv rho lv a = Some va -> sevals rho [] a' va).
    { intros a a' va. exact (IH known rho Hk senv a a' lv fv va Hs). }
    assert (Hargs : forall args args' vs, map_opt (shrink fs known senv) args = Some args' ->
              map_opt (seval fv rho lv) args = Some vs -> Forall2 (sevals rho []) args' vs).
    { intros args args' vs. apply map_opt_rel. exact IHe. }
    destruct e as [c|n|k|op args|c t e2|g args]; cbn [PEval.seval] in Hev.
    - injection Hsh as <-. injection Hev as <-. apply sevals_const.
    - cbn in Hsh. destruct (nth_error known n) as [[kv|]|] eqn:En; injection Hsh as <-; try (exists 1%nat; exact Hev).
      rewrite (Hk n kv En) in Hev. injection Hev as <-. apply sevals_const.
    - exact (Forall2_nth_error Hs Hsh Hev).
    - cbn in Hsh.
      destruct (map_opt (shrink fs known senv) args) as [args'|] eqn:Ea; [|discriminate].
      destruct (map_opt (seval fv rho lv) args) as [vs|] eqn:Ev; [|discriminate].
      assert (Hres : sevals rho [] (EOp op args') v) by exact (sevals_op (Hargs _ _ _ Ea Ev) Hev).
      destruct (map_opt const_of args') as [cs|] eqn:Ec; [|injection Hsh as <-; exact Hres].
      destruct (opf op (of_list cs)) as [v'|] eqn:Eo; injection Hsh as <-; [|exact Hres].
      (* the folded constant is a value of the residual call too, and values are unique *)
      rewrite (sevals_det Hres (sevals_op (sevals_consts Ec) Eo)). apply sevals_const.
    - destruct (seval fv rho lv c) as [vc|] eqn:Evc; [|discriminate].
      destruct (shrink_if Hsh) as [(vc' & Ec & Hb) | (c' & t' & e2' & Ec & Et & Ee & ->)].
      + rewrite (sevals_det (sevals_const _ _ vc') (IHe _ _ _ Ec Evc)) in Hb.
        apply (IHe _ _ _ Hb). destruct (truthy vc); exact Hev.
      + apply (sevals_if (IHe _ _ _ Ec Evc)). destruct (truthy vc); eapply IHe; eassumption.
    - cbn in Hsh.
      destruct (map_opt (shrink fs known senv) args) as [args'|] eqn:Ea; [|discriminate].
      destruct (map_opt (seval fv rho lv) args) as [vs|] eqn:Ev; [|discriminate].
      destruct (nth_error funs g) as [body|]; [|discriminate].
      (* the body is shrunk under the shrunk arguments and evaluated under their values *)
      exact (IH known rho Hk args' body e' vs fv v (Hargs _ _ _ Ea Ev) Hsh Hev).
  Qed.

  (* outside any function (senv and lv empty): a constant returned by the evaluator is the program's value *)
  Corollary shrink_constant_is_value fs known rho e c fv v :
    consistent known rho -> shrink fs known [] e = Some (EConst c) -> seval fv rho [] e = Some v -> c = v.
  Proof.
    intros Hk Hs Hv. apply (sevals_det (sevals_const rho [] c)).
    exact (shrink_sound fs known rho Hk [] e (EConst c) [] fv v (Forall2_nil _) Hs Hv).
  Qed.

  (* the residue contains no calls and no function parameters *)
  Theorem shrink_plain : forall fs known senv e e', forallb plain senv = true -> shrink fs known senv e = Some e' -> plain e' = true.
  Proof.
    induction fs as [|fs IH]; intros known senv e e' Hs H; [discriminate|].
    assert (Hargs : forall args args', map_opt (shrink fs known senv) args = Some args' -> forallb plain args' = true).
    { intros args args'. apply forallb_map_opt. intros x y. apply IH. exact Hs. }
    destruct e as [c|n|k|op args|c t e2|g args].
    - injection H as <-. reflexivity.
    - cbn in H. destruct (nth_error known n) as [[kv|]|]; injection H as <-; reflexivity.
    - rewrite forallb_forall in Hs. apply Hs. eapply nth_error_In. exact H.
    - cbn in H. destruct (map_opt (shrink fs known senv) args) as [args'|] eqn:Ea; [|discriminate].
      apply Hargs in Ea.
      destruct (map_opt const_of args') as [cs|]; [destruct (opf op (of_list cs))|]; injection H as <-; auto.
    - destruct (shrink_if H) as [(vc & _ & Hb) | (c' & t' & e2' & Ec & Et & Ee & ->)].
      + exact (IH _ _ _ _ Hs Hb).
      + cbn. rewrite (IH _ _ _ _ Hs Ec), (IH _ _ _ _ Hs Et), (IH _ _ _ _ Hs Ee). reflexivity.
    - cbn in H. destruct (map_opt (shrink fs known senv) args) as [args'|] eqn:Ea; [|discriminate].
      destruct (nth_error funs g) as [body|]; [|discriminate].
      exact (IH _ _ _ _ (Hargs _ _ Ea) H).
  Qed.

  Definition agree_except (n : nat) (rho rho' : list val) : Prop := forall m, m <> n -> nth_error rho m = nth_error rho' m.

  (* a plain expression that does not mention parameter n has the same meaning whatever that parameter is *)
  Theorem plain_independent : forall F n rho rho' lv e, agree_except n rho rho' ->
    plain e = true -> mentions n e = false -> seval F rho lv e = seval F rho' lv e.
  Proof.
    induction F as [|F IH]; intros n rho rho' lv e Ha Hp Hm; [reflexivity|].
    destruct e as [c|m|k|op args|c t e2|g args]; cbn [PEval.seval plain mentions] in *; try reflexivity; try discriminate.
    - apply Ha. intros ->. rewrite Nat.eqb_refl in Hm. discriminate.
    - rewrite (map_opt_ext (seval F rho lv) (seval F rho' lv) args); [reflexivity|].
      intros x Hin. apply (IH n); [exact Ha| |].
      + rewrite forallb_forall in Hp. apply Hp. exact Hin.
      + destruct (mentions n x) eqn:E; [|reflexivity]. assert (existsb (mentions n) args = true) by (apply existsb_exists; exists x; auto). congruence.
    - rewrite !andb_true_iff in Hp. destruct Hp as [[Hc Ht] He2].
      rewrite !orb_false_iff in Hm. destruct Hm as [[Hmc Hmt] Hme].
      rewrite (IH n rho rho' lv c Ha Hc Hmc). destruct (seval F rho' lv c) as [vc|]; [|reflexivity].
      destruct (truthy vc); apply (IH n); assumption.
  Qed.

  Lemma consistent_unknown np rho : consistent (repeat None np) rho.
  Proof. intros n v H. apply nth_error_In, repeat_spec in H. discriminate. Qed.

  (* the unused-argument check (model): a parameter reported unused cannot change a returned value *)
  Theorem unused_noninterference fs np body n rho rho' f f' v v' :
    reported_unused opf funs fs np body n = true -> agree_except n rho rho' ->
    seval f rho [] body = Some v -> seval f' rho' [] body = Some v' -> v = v'.
  Proof.
    unfold reported_unused. intros Hr Ha Hv Hv'.
    destruct (PEval.shrink opf funs fs (repeat None np) [] body) as [r|] eqn:Es; [|discriminate].
    apply negb_true_iff in Hr.
    pose proof (shrink_sound fs _ rho (consistent_unknown np rho) [] body r [] f v (Forall2_nil _) Es Hv) as H1.
    destruct (shrink_sound fs _ rho' (consistent_unknown np rho') [] body r [] f' v' (Forall2_nil _) Es Hv') as [F2 H2].
    rewrite <- (plain_independent F2 n rho rho' [] r Ha (shrink_plain fs _ [] body r eq_refl Es) Hr) in H2.
    exact (sevals_det H1 (ex_intro _ F2 H2)).
  Qed.
End Proofs.
