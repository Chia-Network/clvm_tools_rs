(* compiler/codegen.rs create_name_lookup_: the environment path of a name in a parameter tree
   (atoms name parameters, conses destructure, (@ name pattern) captures the whole sub-argument), and
   the reference notion of "the component of the argument value bound to the name". *)
From CV Require Import Base.Prelude Base.Val Clvm.Path.

Inductive pat :=
| PName (n : bytes)            (* a parameter name *)
| PCons (h r : pat)
| PAt (cap : bytes) (sub : pat)   (* (@ cap sub) *)
| POther.                      (* nil / anything that binds nothing *)

(* create_name_lookup_ (the u64 arithmetic 2*v, 2*v+1 is exact below 64 levels; positive has no bound) *)
Fixpoint lookup (p : pat) (name : bytes) : option positive :=
  match p with
  | PName a => if bytes_eqb a name then Some xH else None
  | PCons h r =>
      match lookup h name with
      | Some v => Some (xO v)
      | None => match lookup r name with Some v => Some (xI v) | None => None end
      end
  | PAt cap sub => if bytes_eqb cap name then Some xH else lookup sub name
  | POther => None
  end.

(* the value a name is bound to when [env] is destructured by the pattern (first occurrence wins,
   head before rest, a capture before its sub-pattern) *)
Fixpoint select (p : pat) (name : bytes) (env : val) : option val :=
  match p with
  | PName a => if bytes_eqb a name then Some env else None
  | PCons h r =>
      match env with
      | Cons eh er =>
          match lookup h name with
          | Some _ => select h name eh
          | None => select r name er
          end
      | Atom _ => None
      end
  | PAt cap sub => if bytes_eqb cap name then Some env else select sub name env
  | POther => None
  end.

Lemma select_path : forall p name env v, select p name env = Some v ->
  exists path, lookup p name = Some path /\ traverse_pos path env = Ok v.
Proof.
  induction p as [a|h IHh r IHr|cap sub IH|]; intros name env v Hs; cbn [lookup select] in *.
  - destruct (bytes_eqb a name); [|discriminate]. injection Hs as ->. exists xH. split; reflexivity.
  - destruct env as [b|eh er]; [discriminate|].
    destruct (lookup h name) as [vh|] eqn:Eh.
    + destruct (IHh name eh v Hs) as [ph [Hp Ht]]. exists (xO ph). split; [congruence|exact Ht].
    + destruct (IHr name er v Hs) as [pr [-> Ht]]. exists (xI pr). split; [reflexivity|exact Ht].
  - destruct (bytes_eqb cap name); [|apply (IH name env v Hs)].
    injection Hs as ->. exists xH. split; reflexivity.
  - discriminate.
Qed.

Theorem lookup_correct : forall p name path env v,
  lookup p name = Some path -> select p name env = Some v -> traverse_pos path env = Ok v.
Proof.
  intros p name path env v Hl Hs. destruct (select_path p name env v Hs) as [path' [Hl' Ht]]. congruence.
Qed.

(* a name the pattern binds always has a path *)
Theorem lookup_total : forall p name env v, select p name env = Some v -> exists path, lookup p name = Some path.
Proof.
  intros p name env v Hs. destruct (select_path p name env v Hs) as [path [Hl _]]. exists path. exact Hl.
Qed.
