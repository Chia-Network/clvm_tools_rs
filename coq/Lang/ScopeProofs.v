From Coq Require Import Sorting.Sorted Sorting.Permutation.
From CV Require Import Base.Prelude Lang.Scope.

Lemma set_nth_length {A} (l : list A) n x : length (set_nth l n x) = length l.
Proof. revert n; induction l as [|y r IH]; intros [|n]; cbn; auto. Qed.

Lemma nth_error_set_nth {A} (l : list A) n x m : (n < length l)%nat ->
  nth_error (set_nth l n x) m = if Nat.eqb m n then Some x else nth_error l m.
Proof. revert n m; induction l as [|y r IH]; intros [|n] [|m] H; cbn in *; try lia; try reflexivity. apply IH. lia. Qed.

Lemma nth_error_swap {A} (l : list A) i k m : (i < length l)%nat -> (k < length l)%nat ->
  nth_error (swap l i k) m =
  if Nat.eqb m k then nth_error l i else if Nat.eqb m i then nth_error l k else nth_error l m.
Proof.
  intros Hi Hk. unfold swap.
  destruct (nth_error l i) eqn:Ei; [|apply nth_error_None in Ei; lia].
  destruct (nth_error l k) eqn:Ek; [|apply nth_error_None in Ek; lia].
  rewrite !nth_error_set_nth by (rewrite ?set_nth_length; assumption). reflexivity.
Qed.

Lemma ready_idxs_bound done : forall l k i, In i (ready_idxs done k l) ->
  (k <= i)%nat /\ exists x, nth_error l (i - k) = Some x /\ ready done x = true.
Proof.
  induction l as [|it r IH]; intros k i H; cbn in H; [contradiction|].
  assert (Hin : i = k /\ ready done it = true \/ In i (ready_idxs done (S k) r))
    by (destruct (ready done it); [destruct H|]; auto).
  destruct Hin as [[-> E]|Hin].
  - rewrite Nat.sub_diag. split; [lia|]. exists it. auto.
  - apply IH in Hin. destruct Hin as [Hk Hx]. split; [lia|].
    replace (i - k)%nat with (S (i - S k)) by lia. exact Hx.
Qed.

Lemma ready_idxs_sorted done : forall l k, StronglySorted lt (ready_idxs done k l).
Proof.
  induction l as [|it r IH]; intros k; cbn; [constructor|].
  destruct (ready done it); [|apply IH].
  constructor; [apply IH|]. apply Forall_forall. intros i Hi. apply ready_idxs_bound in Hi. lia.
Qed.

(* That the first k positions hold only items satisfying P is the invariant of the swap loop: a step puts
   one more of them at position k, and the positions still listed lie beyond both positions exchanged, so
   they keep their items. *)
Lemma swaps_front {A} (P : A -> Prop) : forall idxs (l : list A) k,
  StronglySorted lt idxs ->
  (forall i, In i idxs -> (k <= i)%nat /\ exists x, nth_error l i = Some x /\ P x) ->
  (forall j x, (j < k)%nat -> nth_error l j = Some x -> P x) ->
  forall j x, (j < k + length idxs)%nat -> nth_error (swaps l k idxs) j = Some x -> P x.
Proof.
  induction idxs as [|i r IH]; intros l k Hs Hi Hk j x Hj; cbn [swaps length] in *.
  - apply Hk. lia.
  - inversion Hs as [|? ? Hs' Hlt]; subst. rewrite Forall_forall in Hlt.
    destruct (Hi i (or_introl eq_refl)) as (Hki & xi & Hxi & HPi).
    assert (Hil : (i < length l)%nat) by (apply nth_error_Some; congruence).
    apply (IH (swap l i k) (S k) Hs'); [| |lia].
    + intros i' Hi'. specialize (Hlt i' Hi'). split; [lia|]. rewrite nth_error_swap by lia.
      destruct (Nat.eqb_spec i' k); [lia|]. destruct (Nat.eqb_spec i' i); [lia|]. apply Hi. right. exact Hi'.
    + intros j' x' Hj'. rewrite nth_error_swap by lia.
      destruct (Nat.eqb_spec j' k); [congruence|]. destruct (Nat.eqb_spec j' i); [lia|]. apply Hk. lia.
Qed.

Lemma In_firstn_nth {A} (x : A) : forall m l, In x (firstn m l) -> exists j, (j < m)%nat /\ nth_error l j = Some x.
Proof.
  induction m as [|m IH]; intros [|y r] H; cbn in H; try contradiction.
  destruct H as [<-|H]; [exists 0%nat; split; [lia|reflexivity]|].
  apply IH in H. destruct H as (j & Hj & E). exists (S j). split; [lia|exact E].
Qed.

Lemma round_now_ready done pending it :
  In it (firstn (length (ready_idxs done 0 pending)) (swaps pending 0 (ready_idxs done 0 pending))) -> ready done it = true.
Proof.
  intros H. apply In_firstn_nth in H. destruct H as (j & Hj & E).
  apply (swaps_front (fun x => ready done x = true) (ready_idxs done 0 pending) pending 0) with (j := j);
    [apply ready_idxs_sorted| |lia|exact Hj|exact E].
  intros i Hi. apply ready_idxs_bound in Hi. rewrite Nat.sub_0_r in Hi. exact Hi.
Qed.

Lemma set_nth_perm {A} (l : list A) : forall i a x,
  nth_error l i = Some a -> Permutation (x :: l) (a :: set_nth l i x).
Proof.
  induction l as [|y r IH]; intros [|i] a x E; cbn in *; try discriminate.
  - inversion E; subst. apply perm_swap.
  - rewrite (perm_swap y x r), (IH i a x E). apply perm_swap.
Qed.

(* the first replacement leaves b at position j, whether or not j = i, so the second puts a back *)
Lemma swap_perm {A} (l : list A) i j : Permutation (swap l i j) l.
Proof.
  unfold swap. destruct (nth_error l i) as [a|] eqn:Ea; [|reflexivity]. destruct (nth_error l j) as [b|] eqn:Eb; [|reflexivity].
  apply Permutation_cons_inv with (a := b).
  rewrite (set_nth_perm l i a b Ea). symmetry. apply set_nth_perm.
  rewrite nth_error_set_nth by (apply nth_error_Some; congruence).
  destruct (Nat.eqb j i); [reflexivity|exact Eb].
Qed.

Lemma swaps_perm {A} idxs : forall (l : list A) k, Permutation (swaps l k idxs) l.
Proof. induction idxs as [|i r IH]; intros l k; cbn; [reflexivity|]. rewrite IH. apply swap_perm. Qed.

Lemma subset_spec a b : subset a b = true <-> (forall x, In x a -> In x b).
Proof.
  unfold subset. rewrite forallb_forall. split; intros H x Hx; specialize (H x Hx).
  - apply existsb_exists in H. destruct H as (y & Hy & E). apply Nat.eqb_eq in E. subst. exact Hy.
  - apply existsb_exists. exists x. split; [exact H|apply Nat.eqb_refl].
Qed.

Lemma subset_app_mono a b c : subset a b = true -> subset a (b ++ c) = true.
Proof. rewrite !subset_spec. intros H x Hx. apply in_or_app. left. apply H, Hx. Qed.

Lemma respects_app provided o1 o2 :
  respects provided o1 -> respects (provided ++ flat_map has o1) o2 -> respects provided (o1 ++ o2).
Proof.
  revert provided; induction o1 as [|x r IH]; intros provided H1 H2; cbn [app flat_map] in *.
  - rewrite app_nil_r in H2. exact H2.
  - destruct H1 as [Hx Hr]. split; [exact Hx|]. apply IH; [exact Hr|]. rewrite <- app_assoc. exact H2.
Qed.

Lemma respects_ready_block done now : (forall it, In it now -> ready done it = true) -> respects done now.
Proof.
  revert done; induction now as [|x r IH]; intros done H; cbn [respects]; [exact I|].
  split; [apply (H x); left; reflexivity|].
  apply IH. intros it Hin. unfold ready. apply subset_app_mono. apply (H it). right. exact Hin.
Qed.

(* Each round moves a non-empty block of ready items from pending to finished, so the pending items get
   fewer and the fuel lasts. *)
Theorem rounds_spec : forall fuel done finished pending, (length pending < fuel)%nat ->
  rounds fuel done finished pending = Fail \/
  exists order, rounds fuel done finished pending = Ok (finished ++ order) /\
                Permutation order pending /\ respects done order.
Proof.
  induction fuel as [|f IH]; intros done finished pending Hf; [lia|].
  cbn [rounds]. destruct pending as [|p r].
  - right. exists []. rewrite app_nil_r. split; [reflexivity|]. split; [apply perm_nil|exact I].
  - destruct (ready_idxs done 0 (p :: r)) as [|i idxs] eqn:En; [left; reflexivity|].
    set (now := firstn _ _). set (rest := skipn _ _).
    destruct (IH (done ++ flat_map has now) (finished ++ now) rest) as [E|(order & E & Hp & Hr)].
    + unfold rest. rewrite skipn_length, (Permutation_length (swaps_perm _ _ _)). cbn [length] in *. lia.
    + left. exact E.
    + right. exists (now ++ order). rewrite app_assoc. split; [exact E|]. split.
      * rewrite Hp. unfold now, rest. rewrite firstn_skipn. apply swaps_perm.
      * apply respects_app; [|exact Hr].
        apply respects_ready_block. unfold now. rewrite <- En. apply round_now_ready.
Qed.

Corollary toposort_spec items :
  toposort items = Fail \/ exists order, toposort items = Ok order /\ Permutation order items /\ respects [] order.
Proof. apply (rounds_spec (S (length items)) [] [] items). lia. Qed.

(* termination: the loop never runs out of rounds - it ends with an order or with the deadlock error *)
Corollary toposort_never_loops items : toposort items <> Oof.
Proof. destruct (toposort_spec items) as [E|(o & E & _)]; congruence. Qed.

(* a returned order places every item after the items that provide what it needs *)
Corollary toposort_order_ok items order : toposort items = Ok order -> respects [] order.
Proof. destruct (toposort_spec items) as [E|(o & E & _ & Hr)]; congruence. Qed.

(* the order is a rearrangement of the items: nothing is dropped or duplicated *)
Corollary toposort_is_permutation items order : toposort items = Ok order -> Permutation order items.
Proof. destruct (toposort_spec items) as [E|(o & E & Hp & _)]; congruence. Qed.

Definition same_set (a b : list nat) : Prop := forall x, In x a <-> In x b.

Lemma subset_same a b c : same_set b c -> subset a b = true -> subset a c = true.
Proof. intros Hs. rewrite !subset_spec. intros H x Hx. apply Hs. apply H. exact Hx. Qed.

Lemma stages_ok_same p q st : same_set p q -> stages_ok p st -> stages_ok q st.
Proof.
  revert p q; induction st as [|s r IH]; intros p q Hpq H; cbn in *; [exact I|].
  destruct H as [Hs Hr]. split.
  - intros it Hin. eapply subset_same; [exact Hpq|]. apply Hs. exact Hin.
  - eapply IH; [|exact Hr]. intros x. rewrite !in_app_iff. specialize (Hpq x). tauto.
Qed.

Lemma stages_acc : forall order cur_prov new_prov this_round acc,
  stages cur_prov new_prov this_round acc order = acc ++ stages cur_prov new_prov this_round [] order.
Proof.
  induction order as [|s r IH]; intros cur_prov new_prov this_round acc; cbn [stages].
  - destruct this_round; [symmetry; apply app_nil_r|reflexivity].
  - destruct (subset (needs s) cur_prov); [apply IH|].
    rewrite (IH _ _ _ (acc ++ [this_round])), (IH _ _ _ ([] ++ [this_round])). symmetry. apply app_assoc.
Qed.

(* invariant of the walk: of the closed stages only what they provide matters, cur_prov; new_prov is what
   the open stage provides, and the rest of the order respects their union *)
Theorem stages_sound : forall order cur_prov new_prov this_round,
  new_prov = flat_map has this_round ->
  (forall it, In it this_round -> subset (needs it) cur_prov = true) ->
  respects (cur_prov ++ new_prov) order ->
  stages_ok cur_prov (stages cur_prov new_prov this_round [] order).
Proof.
  induction order as [|s r IH]; intros cur_prov new_prov this_round -> Hthis Hresp; cbn [stages].
  - destruct this_round; [exact I|]. split; [exact Hthis|exact I].
  - destruct Hresp as [Hs Hr]. destruct (subset (needs s) cur_prov) eqn:E.
    + apply IH.
      * rewrite flat_map_app. cbn. rewrite app_nil_r. reflexivity.
      * intros it Hin. apply in_app_or in Hin. destruct Hin as [Hin|[<-|[]]]; [apply Hthis; exact Hin|exact E].
      * rewrite app_assoc. exact Hr.
    + rewrite stages_acc. split; [exact Hthis|]. apply IH.
      * cbn. rewrite app_nil_r. reflexivity.
      * intros it [<-|[]]. exact Hs.
      * exact Hr.
Qed.

Corollary assign_stages_sound order : respects [] order -> stages_ok [] (assign_stages order).
Proof.
  intros H. unfold assign_stages. apply stages_sound; [reflexivity| |exact H].
  intros it [].
Qed.

Corollary assign_pipeline items order :
  toposort items = Ok order -> Permutation order items /\ stages_ok [] (assign_stages order).
Proof. intros H. split; [apply toposort_is_permutation|apply assign_stages_sound, (toposort_order_ok items)]; exact H. Qed.
