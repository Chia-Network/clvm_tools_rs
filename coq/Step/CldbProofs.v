From CV Require Import Base.Prelude Base.Val Step.Stepper Step.StepperProofs Step.Cldb.

Section P.
Variable opf : bytes -> val -> option val.
Notation cstep := (cstep opf).
Notation trace := (trace opf).
Notation run_step := (run_step opf).

(* the machine reads h neither as apply (2) nor as if (3) *)
Definition not_a_i (h : bytes) : bool := negb (Z.eqb (head_value h) 2) && negb (Z.eqb (head_value h) 3).

(* the invariant that makes rows true: while a row (h, acc) with such an h is pending, the machine sits in the
   state Op h _ acc None _ *)
Definition pending_ok (c : cstate) : Prop :=
  forall h acc, pending c = Some (h, acc) -> not_a_i h = true ->
    exists ctx k, cur c = SOp h ctx acc None k.

Lemma pending_step c h acc : pending_ok c -> pending c = Some (h, acc) -> not_a_i h = true ->
  run_step (cur c) = option_map (fun v => SOpResult v (cur c)) (op_meaning opf h acc).
Proof.
  intros Hp Hpend Hn. destruct (Hp h acc Hpend Hn) as (ctx & k & ->).
  apply andb_true_iff in Hn. destruct Hn as [H2 H3]. apply negb_true_iff in H2, H3.
  apply run_step_op; assumption.
Qed.

Lemma cstep_cur c : cur (fst (cstep c)) = match run_step (cur c) with Some s' => s' | None => cur c end.
Proof.
  unfold Cldb.cstep. destruct (run_step (cur c)) as [[v|v k|h ctx acc [rest|] k|p ctx k]|];
    try destruct (pending c) as [[h1 a1]|]; reflexivity.
Qed.

Lemma cstep_row c x : snd (cstep c) = Some x ->
  match x with
  | ROp n h args v =>
      n = rown c /\ pending c = Some (h, args) /\ exists k, run_step (cur c) = Some (SOpResult v k)
  | RValue _ _ => False
  | RFinal v => run_step (cur c) = Some (SDone v)
  | RFailure => run_step (cur c) = None
  end.
Proof.
  unfold Cldb.cstep. destruct (run_step (cur c)) as [[v|v k|h ctx acc [rest|] k|p ctx k]|];
    try destruct (pending c) as [[h1 a1]|]; intros H; inversion H; eauto.
Qed.

Lemma cstep_preserves c : pending_ok c -> pending_ok (fst (cstep c)).
Proof.
  intros Hp h acc Hpend Hn. unfold Cldb.cstep in *. destruct (run_step (cur c)) as [s'|] eqn:E.
  - destruct s' as [v|v k|h' ctx acc' [rest|] k|p ctx k]; cbn [fst pending cur] in *.
    (* Done, Op with operands to go, Step leave the pending row open; but the step from its state closes it *)
    1, 3, 5: rewrite (pending_step c h acc Hp Hpend Hn) in E; destruct (op_meaning opf h acc); discriminate.
    + (* OpResult: no row is pending *) destruct (pending c) as [[h1 a1]|]; discriminate.
    + (* Op None: opens a pending row for exactly this state *) inversion Hpend; subst. eauto.
  - exact (Hp h acc Hpend Hn).
Qed.

Lemma trace_in x f c : In x (trace (S f) c) -> snd (cstep c) = Some x \/ In x (trace f (fst (cstep c))).
Proof.
  cbn [Cldb.trace]. destruct (ended c); [contradiction|].
  destruct (cstep c) as [c' [y|]]; cbn [fst snd In]; [|auto].
  intros [->|H]; auto.
Qed.

(* every row of the trace that reports an operator (other than apply and if), its arguments and a
   value is true: that operator applied to those arguments gives that value *)
Theorem rows_true : forall fuel c, pending_ok c ->
  forall n h args v, In (ROp n h args v) (trace fuel c) -> not_a_i h = true -> op_meaning opf h args = Some v.
Proof.
  induction fuel as [|f IH]; intros c Hp n h args v Hin Hn; [contradiction|].
  apply trace_in in Hin. destruct Hin as [Hr|Hin].
  - apply cstep_row in Hr. destruct Hr as (_ & Hpend & k & E).
    rewrite (pending_step c h args Hp Hpend Hn) in E.
    destruct (op_meaning opf h args); [|discriminate]. inversion E. reflexivity.
  - exact (IH _ (cstep_preserves c Hp) n h args v Hin Hn).
Qed.

(* a Final v entry in the trace means that the stepping machine reaches Done v *)
Theorem final_is_machine_result : forall fuel c v, In (RFinal v) (trace fuel c) ->
  exists m, iter opf m (cur c) = Some (SDone v).
Proof.
  induction fuel as [|f IH]; intros c v Hin; [contradiction|].
  apply trace_in in Hin. destruct Hin as [Hr|Hin].
  - apply cstep_row in Hr. exact (reaches_step opf _ _ _ Hr (reaches_refl opf _)).
  - apply IH in Hin. rewrite cstep_cur in Hin.
    (* after a failure the row machine keeps the machine state *)
    destruct (run_step (cur c)) as [s'|] eqn:E; [exact (reaches_step opf _ _ _ E Hin)|exact Hin].
Qed.

Lemma pending_ok_start p e : pending_ok (cldb_start p e).
Proof. intros h acc H. discriminate. Qed.

End P.
