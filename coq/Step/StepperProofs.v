(* The stepping machine simulates the evaluation relation eval_nph of Stepper.v (consensus evaluation that
   fails on ((X) ...) forms), forward direction, values: whenever eval_nph returns v, the machine reaches
   Done v, for every continuation. *)
From CV Require Import Base.Prelude Base.Val Base.Bytes Clvm.Eval Step.Stepper Step.Cldb.

Lemma evl_Forall2 ev (R : val -> val -> Prop) : (forall x v, ev x = Ok v -> R x v) ->
  forall l vs, evl ev l = Ok vs -> Forall2 R l vs.
Proof.
  intros Hev. induction l as [|x r IH]; intros vs E; cbn [evl] in E.
  - injection E as <-. constructor.
  - destruct (evl ev r) as [vr| |]; try discriminate.
    destruct (ev x) as [v| |] eqn:Ex; try discriminate. injection E as <-.
    constructor; [exact (Hev x v Ex)|exact (IH vr eq_refl)].
Qed.

Lemma eval_list_Forall2 ev l vs : Forall2 (fun x v => ev x = Ok v) l vs ->
  eval_list ev (of_list l) = Ok (of_list vs).
Proof.
  induction 1 as [|x v r vr Hx _ IH]; cbn [of_list eval_list nilv]; [reflexivity|].
  rewrite IH, Hx. reflexivity.
Qed.

Section Proofs.
Variable opf : bytes -> val -> option val.

(* the operator oracle is strict about the operators the machine implements natively:
   it knows them only under their canonical one-byte spelling, with the machine's meaning *)
Definition native_value (h : bytes) : bool :=
  let a := head_value h in (Z.leb 1 a) && (Z.leb a 6).
Hypothesis strict_spelling : forall h args v, opf h args = Some v -> native_value h = true ->
  exists o, h = [o] /\ o < 256.
Hypothesis opf_if : forall vs, opf [3] (of_list vs) =
  match vs with [c; x; y] => Some (if nilp c then y else x) | _ => None end.
Hypothesis opf_cons : forall vs, opf [4] (of_list vs) =
  match vs with [x; y] => Some (Cons x y) | _ => None end.
Hypothesis opf_first : forall vs, opf [5] (of_list vs) =
  match vs with [Cons x _] => Some x | _ => None end.
Hypothesis opf_rest : forall vs, opf [6] (of_list vs) =
  match vs with [Cons _ y] => Some y | _ => None end.

Notation iter := (iter opf).
Notation run_step := (run_step opf).
Notation eval_nph := (eval_nph opf).

Definition reaches (s s' : st) : Prop := exists m, iter m s = Some s'.

Lemma iter_add a b s : iter (a + b) s = match iter a s with Some s' => iter b s' | None => None end.
Proof. revert s; induction a; intros s; cbn; auto. destruct (run_step s); auto. Qed.

Lemma reaches_refl s : reaches s s.
Proof. exists 0%nat. reflexivity. Qed.

Lemma reaches_step s s' s'' : run_step s = Some s' -> reaches s' s'' -> reaches s s''.
Proof. intros E [b Hb]. exists (S b). cbn [Stepper.iter]. rewrite E. exact Hb. Qed.

Lemma reaches_trans s s' s'' : reaches s s' -> reaches s' s'' -> reaches s s''.
Proof. intros [a Ha] [b Hb]. exists (a + b)%nat. rewrite iter_add, Ha. exact Hb. Qed.

Lemma iter_done m v : iter m (SDone v) = Some (SDone v).
Proof. induction m; auto. Qed.

Lemma pop_last_snoc r x : pop_last (r ++ [x]) = Some (r, x).
Proof. unfold pop_last. rewrite rev_app_distr. cbn. rewrite rev_involutive. reflexivity. Qed.

(* evaluating the operands one by one, last first, each put in front of those already done *)
Lemma args_fwd h ctx K : forall l vs,
  Forall2 (fun x v => forall K', reaches (SStep x ctx K') (combine_done v K')) l vs ->
  forall done, reaches (SOp h ctx (of_list done) (Some l) K) (SOp h ctx (of_list (vs ++ done)) None K).
Proof.
  induction l as [|x r IH] using rev_ind; intros vs E done.
  - inversion E. exists 1%nat. reflexivity.
  - apply Forall2_app_inv_l in E as (vr & vx & Hr & Hx & ->).
    inversion Hx as [|? v ? ? Hv Hnil]; subst. inversion Hnil; subst. rewrite <- app_assoc.
    apply reaches_step with (SStep x ctx (SOp h ctx (of_list done) (Some r) K)).
    { cbn [Stepper.run_step]. rewrite pop_last_snoc. reflexivity. }
    eapply reaches_trans; [apply Hv|]. exact (IH vr Hr (v :: done)).
Qed.

Lemma operands_fwd h args ctx K l vs :
  Forall2 (fun x v => forall K', reaches (SStep x ctx K') (combine_done v K')) l vs ->
  to_list args = Some l -> Z.eqb (head_value h) 1 = false ->
  reaches (SStep (Cons (Atom h) args) ctx K) (SOp h ctx (of_list vs) None K).
Proof.
  intros Hl El H1. apply reaches_step with (SOp h ctx nilv (Some l) K).
  { cbn [Stepper.run_step]. rewrite H1, El. reflexivity. }
  rewrite <- (app_nil_r vs). exact (args_fwd h ctx K l vs Hl []).
Qed.

Lemma head_value_1 : head_value [1] = 1%Z. Proof. reflexivity. Qed.

Lemma run_step_op h ctx acc k : Z.eqb (head_value h) 2 = false -> Z.eqb (head_value h) 3 = false ->
  run_step (SOp h ctx acc None k) =
  option_map (fun v => SOpResult v (SOp h ctx acc None k)) (op_meaning opf h acc).
Proof.
  intros H2 H3. unfold op_meaning. cbn [Stepper.run_step]. rewrite H2, H3.
  destruct (to_list acc) as [vs|]; [|reflexivity].
  destruct (Z.eqb (head_value h) 4). { destruct vs as [|x [|y [|? ?]]]; reflexivity. }
  destruct (Z.eqb (head_value h) 5). { destruct vs as [|[|x x'] [|? ?]]; reflexivity. }
  destruct (Z.eqb (head_value h) 6). { destruct vs as [|[|x x'] [|? ?]]; reflexivity. }
  reflexivity.
Qed.

(* op_meaning with the `i` operator, which Cldb.v leaves out of it (the debugger's row for `i` is the finding D8) *)
Definition machine_op (h : bytes) (acc : val) : option val :=
  if Z.eqb (head_value h) 3 then
    match to_list acc with Some [c; x; y] => Some (if nilp c then y else x) | _ => None end
  else op_meaning opf h acc.

Lemma op_returns h ctx acc K v : Z.eqb (head_value h) 2 = false -> machine_op h acc = Some v ->
  reaches (SOp h ctx acc None K) (combine_done v K).
Proof.
  unfold machine_op. intros H2 Hv. destruct (Z.eqb (head_value h) 3) eqn:H3.
  - exists 1%nat. cbn [Stepper.iter Stepper.run_step]. rewrite H2, H3.
    destruct (to_list acc) as [[|c [|x [|y [|? ?]]]]|]; try discriminate. inversion Hv. reflexivity.
  - exists 2%nat. cbn [Stepper.iter]. rewrite run_step_op, Hv by assumption. reflexivity.
Qed.

Lemma native_single o : o < 256 -> native_value [o] = true -> o = 1 \/ o = 2 \/ o = 3 \/ o = 4 \/ o = 5 \/ o = 6.
Proof.
  unfold native_value, head_value, be_signed, be_unsigned. cbn [be_acc length].
  change (2 ^ (8 * Z.of_nat 1))%Z with 256%Z.
  intros Ho. destruct (N.leb_spec 128 o) as [E|E]; intros H; apply andb_true_iff in H; destruct H as [H1 H2];
    apply Z.leb_le in H1, H2; lia.
Qed.

Lemma not_native_eqb h k : native_value h = false -> (1 <= k <= 6)%Z -> Z.eqb (head_value h) k = false.
Proof.
  unfold native_value. intros En Hk. apply Z.eqb_neq. intros E. rewrite E in En.
  apply andb_false_iff in En. rewrite !Z.leb_gt in En. lia.
Qed.

(* a native reading of op is the canonical spelling of one of q a i c f r, on the last four of which oracle and
   machine agree; any other operator the machine passes to the oracle *)
Lemma oracle_is_machine_op op vs v : opf op (of_list vs) = Some v ->
  bytes_eqb op quote_atom = false -> bytes_eqb op apply_atom = false ->
  Z.eqb (head_value op) 1 = false /\ Z.eqb (head_value op) 2 = false /\ machine_op op (of_list vs) = Some v.
Proof.
  intros Eo Eq Ea. unfold machine_op, op_meaning. rewrite to_list_of_list.
  destruct (native_value op) eqn:En.
  - destruct (strict_spelling _ _ _ Eo En) as [o [-> Ho]].
    destruct (native_single o Ho En) as [->|[->|[->|[->|[->| ->]]]]].
    + discriminate Eq.
    + discriminate Ea.
    + rewrite opf_if in Eo. auto.
    + rewrite opf_cons in Eo. auto.
    + rewrite opf_first in Eo. auto.
    + rewrite opf_rest in Eo. auto.
  - rewrite !(not_native_eqb op _ En) by lia. auto.
Qed.

Theorem forward : forall n p e v, eval_nph n p e = Ok v ->
  forall K, exists m, iter m (SStep p e K) = Some (combine_done v K).
Proof.
  induction n as [|n IH]; intros p e v H K; [discriminate|].
  destruct p as [b|[op|? ?] args]; cbn [Stepper.eval_nph] in H.
  - exists 2%nat. cbn [Stepper.iter Stepper.run_step]. rewrite H. reflexivity.
  - destruct (bytes_eqb op quote_atom) eqn:Eq.
    + apply bytes_eqb_eq in Eq. inversion H; subst.
      exists 1%nat. reflexivity.
    + destruct (to_list args) as [l|] eqn:El; [|discriminate].
      destruct (evl (fun x => eval_nph n x e) l) as [vs| |] eqn:Ev; try discriminate.
      pose proof (operands_fwd op args e K l vs (evl_Forall2 _ _ (fun x v0 E => IH x e v0 E) l vs Ev) El) as Hargs.
      destruct (bytes_eqb op apply_atom) eqn:Ea.
      * (* apply: one more step starts the evaluation of the first operand in the second *)
        apply bytes_eqb_eq in Ea. subst op.
        destruct vs as [|q [|e' [|? ?]]]; try discriminate.
        apply (reaches_trans _ _ _ (Hargs eq_refl)).
        apply reaches_step with (SStep q e' K); [reflexivity|]. exact (IH q e' v H K).
      * destruct (opf op (of_list vs)) as [r|] eqn:Eo; [|discriminate]. inversion H; subst r.
        destruct (oracle_is_machine_op op vs v Eo Eq Ea) as (N1 & N2 & Hv).
        exact (reaches_trans _ _ _ (Hargs N1) (op_returns op e (of_list vs) K v N2 Hv)).
  - discriminate.
Qed.

Lemma run_of_iter : forall m s v, iter m s = Some (SDone v) ->
  forall l, (m < l)%nat -> run opf l s = Ok v.
Proof.
  induction m as [|m IH]; intros s v H [|l] Hl; try lia; cbn [Stepper.iter run] in *.
  - inversion H. reflexivity.
  - destruct (run_step s) as [s'|]; [|discriminate].
    destruct s'; try (apply IH; [exact H|lia]).
    rewrite iter_done in H. congruence.
Qed.

Theorem stepper_returns_consensus_value : forall n p e v, eval_nph n p e = Ok v ->
  exists l, forall l', (l <= l')%nat -> run opf l' (start p e) = Ok v.
Proof.
  intros n p e v H. destruct (forward n p e v H (SDone p)) as [m Hm].
  exists (S m). intros l' Hle. apply (run_of_iter m); [exact Hm|lia].
Qed.

(* what eval_nph returns, the consensus evaluator returns *)
Theorem eval_nph_eval : forall n p e v, eval_nph n p e = Ok v -> eval opf n p e = Ok v.
Proof.
  induction n as [|n IH]; intros p e v H; [discriminate|].
  destruct p as [b|[op|? ?] args]; cbn [Stepper.eval_nph] in H; cbn [eval].
  - exact H.
  - destruct (bytes_eqb op quote_atom); [exact H|].
    destruct (to_list args) as [l|] eqn:El; [|discriminate].
    apply to_list_inv in El. subst args.
    destruct (evl (fun x => eval_nph n x e) l) as [vs| |] eqn:Ev; try discriminate.
    rewrite (eval_list_Forall2 _ l vs (evl_Forall2 _ _ (fun x => IH x e) l vs Ev)).
    destruct (bytes_eqb op apply_atom); [|exact H].
    destruct vs as [|q [|e' [|? ?]]]; try discriminate. exact (IH q e' v H).
  - discriminate.
Qed.

End Proofs.
