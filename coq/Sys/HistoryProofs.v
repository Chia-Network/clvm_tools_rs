From CV Require Import Base.Prelude Sys.History.

(* induction principle for the nested act type *)
Section ActInd.
  Variable P : act -> Prop.
  Hypothesis Hg : P Gensym.
  Hypothesis Hs : forall b, P (SetMode b).
  Hypothesis Hc : forall fx body fails, Forall P body -> P (Compile fx body fails).
  Fixpoint act_ind' (a : act) : P a :=
    match a with
    | Gensym => Hg
    | SetMode b => Hs b
    | Compile fx body fails =>
        Hc fx body fails
          ((fix go (l : list act) : Forall P l :=
              match l with [] => Forall_nil P | x :: r => Forall_cons x (act_ind' x) (go r) end) body)
    end.
End ActInd.

Fixpoint no_setmode (a : act) : bool :=
  match a with
  | Gensym => true
  | SetMode _ => false
  | Compile _ body _ => forallb no_setmode body
  end.

(* the inner loop of run_act is run_hist written out in place: the body of a compilation is itself a
   history, run under the compilation's own mode *)
Lemma run_act_compile fx body fails s obs :
  run_act (Compile fx body fails) s obs =
    let '(s2, obs2) := run_hist body (mkG (ctr s) fx) ((fx, fx) :: obs) in (mkG (ctr s2) (mode s), obs2).
Proof. reflexivity. Qed.

(* 1. a compilation leaves the mode as it found it, whatever it nests *)
Theorem compile_restores_mode : forall fx body fails s obs,
  mode (fst (run_act (Compile fx body fails) s obs)) = mode s.
Proof.
  intros. rewrite run_act_compile. destruct (run_hist body _ _). reflexivity.
Qed.

(* The invariant rule of the machine: a predicate on (state, observations) that survives the three
   elementary moves survives every action and every history. *)
Section Invariant.
  Variable P : gstate -> list (bool * bool) -> Prop.

  Definition preserves (a : act) : Prop :=
    forall s o, P s o -> P (fst (run_act a s o)) (snd (run_act a s o)).

  Lemma run_hist_inv h : Forall preserves h ->
    forall s o, P s o -> P (fst (run_hist h s o)) (snd (run_hist h s o)).
  Proof.
    induction 1 as [|a r Ha _ IH]; intros s o H; cbn [run_hist].
    - exact H.
    - apply Ha in H. destruct (run_act a s o) as [s' o']. apply IH. exact H.
  Qed.

  Hypothesis Hdraw : forall s o, P s o -> P (mkG (S (ctr s)) (mode s)) o.
  (* a foreign flip, and equally the guard putting the saved mode back *)
  Hypothesis Hmode : forall b s o, P s o -> P (mkG (ctr s) b) o.
  Hypothesis Henter : forall fx s o, P s o -> P (mkG (ctr s) fx) ((fx, fx) :: o).

  Lemma run_act_inv a : preserves a.
  Proof.
    induction a as [|b|fx body fails IH] using act_ind'; intros s o H.
    - apply Hdraw. exact H.
    - apply Hmode. exact H.
    - rewrite run_act_compile.
      apply (Henter fx), (run_hist_inv body IH) in H.
      destruct (run_hist body _ _) as [s2 o2]. apply Hmode. exact H.
  Qed.
End Invariant.

(* 2. every compile body observes the mode of its own dialect at its start, whatever the history *)
Theorem compile_sees_own_mode : forall a s obs,
  (forall o, In o obs -> fst o = snd o) ->
  forall o, In o (snd (run_act a s obs)) -> fst o = snd o.
Proof.
  apply (run_act_inv (fun _ obs => forall o, In o obs -> fst o = snd o)).
  - auto.
  - auto.
  - intros fx _ obs Hobs o [<-|Ho]; [reflexivity|apply Hobs; exact Ho].
Qed.

(* 3. the fresh-name counter never decreases *)
Theorem counter_monotone : forall a s obs, (ctr s <= ctr (fst (run_act a s obs)))%nat.
Proof.
  intros a s obs. apply (run_act_inv (fun s' _ => (ctr s <= ctr s')%nat)); cbn; lia.
Qed.
