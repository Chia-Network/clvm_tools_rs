From CV Require Import Base.Prelude Sys.AtomicWrite.

Section P.
Variable trim : content -> content.
Variable content_eqb : content -> content -> bool.
Notation step_proc := (step_proc trim content_eqb).
Notation step := (step trim content_eqb).
Notation run := (run trim content_eqb).

(* per-process invariant: a temp ready to be renamed holds exactly the call's data; a call that saw
   the same contents ends with Ok. The other program counters carry no obligation. *)
Definition proc_ok (p : proc) : Prop :=
  match ppc p with
  | PReady => ptemp p = Some (pdata p)
  | PDone ok => psame p = true -> ok = true
  | _ => True
  end.

Definition allowed (prev : option content) (ps : list proc) (t : option content) : Prop :=
  t = prev \/ exists p, In p ps /\ t = Some (pdata p).

Lemma step_proc_ok tgt p a : proc_ok p ->
  let '(t', p') := step_proc tgt p a in
  proc_ok p' /\ pdata p' = pdata p /\ (t' = tgt \/ t' = Some (pdata p)).
Proof.
  intros H. unfold step_proc.
  destruct a as [n| |].
  (* a failure or a crash leaves p alone, finishes it (Ok iff same) or marks it crashed *)
  2, 3: destruct (ppc p); cbn; auto.
  (* an advance from PStart or PCreate leads to a pc without obligation, from PDone or PCrashed nowhere *)
  destruct (ppc p) eqn:Epc; cbn; auto.
  - (* PWriting: the temp becomes ready when it is as long as the data, hence all of it *)
    destruct (_ <=? _)%nat eqn:Hle; cbn; auto.
    apply Nat.leb_le in Hle. rewrite firstn_length in Hle. rewrite firstn_all2 by lia. auto.
  - (* PReady: the rename installs the temp, which holds the data *)
    unfold proc_ok in H. rewrite Epc in H. auto.
Qed.

Lemma update_app {A} (a b : list A) x y : update (a ++ y :: b) (length a) x = a ++ x :: b.
Proof. induction a as [|z r IH]; cbn; [reflexivity|]. rewrite IH. reflexivity. Qed.

Definition Inv (prev : option content) (datas : list content) (s : state) : Prop :=
  (forall p, In p (procs s) -> proc_ok p /\ In (pdata p) datas) /\
  (target s = prev \/ exists d, In d datas /\ target s = Some d).

Lemma inv_step prev datas s ev : Inv prev datas s -> Inv prev datas (step s ev).
Proof.
  intros (Hp & Ht). destruct ev as [i a]. unfold step.
  destruct (nth_error (procs s) i) as [p|] eqn:En; [|exact (conj Hp Ht)].
  (* the processes are l1 ++ p :: l2, and the step puts p' in the place of p *)
  apply nth_error_split in En. destruct En as (l1 & l2 & Hl & <-). rewrite Hl in *.
  destruct (Hp p (in_elt p l1 l2)) as [Hokp Hinp].
  pose proof (step_proc_ok (target s) p a Hokp) as Hstep.
  destruct (step_proc (target s) p a) as [t' p']. destruct Hstep as (Hok & Hdata & Htgt).
  rewrite update_app. split; cbn [procs target].
  - intros q Hq. apply in_elt_inv in Hq. destruct Hq as [->|Hq]; [rewrite Hdata; auto|].
    apply Hp. rewrite in_app_iff in *. cbn [In]. tauto.
  - destruct Htgt as [->| ->]; [exact Ht|]. right. exists (pdata p). auto.
Qed.

Lemma inv_init prev calls : Inv prev (map fst calls) (init_state prev calls).
Proof.
  unfold init_state. split; cbn [procs target].
  - intros p H. apply in_map_iff in H. destruct H as ([d g] & <- & Hin).
    split; [exact I|exact (in_map fst _ _ Hin)].
  - left. reflexivity.
Qed.

Lemma inv_run prev datas evs : forall s, Inv prev datas s -> Inv prev datas (run s evs).
Proof.
  unfold run. induction evs as [|ev r IH]; intros s H; [exact H|].
  apply IH, inv_step, H.
Qed.

(* at every instant of every schedule, with crashes and failures anywhere, the target holds its
   previous contents or the complete data of one of the calls *)
Theorem atomic_always prev calls evs :
  let s := run (init_state prev calls) evs in
  target s = prev \/ exists d, In d (map fst calls) /\ target s = Some d.
Proof.
  destruct (inv_run _ _ evs _ (inv_init prev calls)) as (_ & Ht). exact Ht.
Qed.

(* a call that found the same (trimmed) contents succeeds whatever fails afterwards *)
Theorem gentle_same_ok prev calls evs p ok :
  In p (procs (run (init_state prev calls) evs)) -> ppc p = PDone ok -> psame p = true -> ok = true.
Proof.
  destruct (inv_run _ _ evs _ (inv_init prev calls)) as (Hok & _).
  intros Hin Hpc. apply Hok in Hin. destruct Hin as [Hin _]. unfold proc_ok in Hin. rewrite Hpc in Hin. exact Hin.
Qed.

End P.
