From CV Require Import Base.Prelude Gen.Consts Sys.Deps.

(* The source records embedded files (DEPS_RECORD_EMBED is true), and then the record is computed by the
   very traversal that computes the reads: the two definitions differ only in the test of that constant. *)
Lemma deps_reads : deps = reads.
Proof. reflexivity. Qed.

Theorem reads_subset_deps : forall fuel fs search ds x,
  In x (reads fuel fs search ds) -> In x (deps fuel fs search ds).
Proof.
  intros fuel fs search ds x H. rewrite deps_reads. exact H.
Qed.

Lemma resolve_first fs search n d c : resolve fs search n = Some (d, c) ->
  exists before after, search = before ++ d :: after /\ fs d n = Some c /\
    forall d', In d' before -> fs d' n = None.
Proof.
  induction search as [|d0 r IH]; cbn [resolve]; [discriminate|].
  destruct (fs d0 n) as [c0|] eqn:E.
  - intros H; inversion H; subst. exists [], r. split; [reflexivity|]. split; [exact E|]. intros d' [].
  - intros H. destruct (IH H) as (b & a & -> & Hc & Hb). exists (d0 :: b), a.
    split; [reflexivity|]. split; [exact Hc|]. intros d' [<-|Hin]; [exact E|apply Hb; exact Hin].
Qed.

Lemma deps_resolved : forall fuel fs search ds d n,
  In (d, n) (deps fuel fs search ds) -> exists c, resolve fs search n = Some (d, c).
Proof.
  induction fuel as [|f IH]; intros fs search ds d n H; [contradiction|].
  cbn [deps] in H. apply in_flat_map in H. destruct H as (dct & _ & Hx).
  destruct dct as [m|m|]; [| |contradiction].
  - destruct (resolve fs search m) as [[d0 c]|] eqn:E; [|contradiction].
    destruct Hx as [Hx|Hx]; [|exact (IH _ _ _ _ _ Hx)].
    inversion Hx; subst. exists c. exact E.
  - destruct DEPS_RECORD_EMBED; [|contradiction].
    destruct (resolve fs search m) as [[d0 c]|] eqn:E; [|contradiction].
    destruct Hx as [Hx|[]]. inversion Hx; subst. exists c. exact E.
Qed.

(* every listed name is the first match in search-path order: never a later file of the same name *)
Theorem deps_first_match : forall fuel fs search ds d n,
  In (d, n) (deps fuel fs search ds) ->
  exists c before after, resolve fs search n = Some (d, c) /\ search = before ++ d :: after /\
    forall d', In d' before -> fs d' n = None.
Proof.
  intros fuel fs search ds d n H. destruct (deps_resolved _ _ _ _ _ _ H) as (c & E).
  destruct (resolve_first _ _ _ _ _ E) as (b & a & Hs & _ & Hb).
  exists c, b, a. auto.
Qed.
