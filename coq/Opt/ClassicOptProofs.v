(* Soundness of rewrite rules of the classic optimiser, over the fuel-free evaluation relation of
   Clvm/EvalProofs.v, for any operator oracle in which c / f / r are cons / first / rest. *)
From CV Require Import Base.Prelude Base.Val Clvm.Path Clvm.Eval Clvm.EvalProofs Clvm.Ops Opt.ClassicOpt.

Section Sound.
Variable opf : bytes -> val -> option val.
Hypothesis opf_cons : forall a b, opf [4] (Cons a (Cons b nilv)) = Some (Cons a b).
Hypothesis opf_first : forall x, opf [5] (Cons x nilv) = match x with Cons a _ => Some a | Atom _ => None end.
Hypothesis opf_rest : forall x, opf [6] (Cons x nilv) = match x with Cons _ b => Some b | Atom _ => None end.

Notation eval := (eval opf).
Notation evals := (evals opf).

(* one step of eval written out; EvalProofs.eval_mono restated as a lemma of this section *)
Lemma eval_S n p e : eval (S n) p e =
  let apply (op : bytes) (operands : val) : res val :=
    if bytes_eqb op apply_atom then
      match args_n 2 operands with Some [q; e'] => eval n q e' | _ => Fail end
    else match opf op operands with Some v => Ok v | None => Fail end in
  match p with
  | Atom b => traverse b e
  | Cons (Atom op) args =>
      if bytes_eqb op quote_atom then Ok args
      else match eval_list (fun x => eval n x e) args with
           | Ok vs => apply op vs | Fail => Fail | Oof => Oof end
  | Cons (Cons x t) args =>
      match x, t with Atom opx, Atom _ => apply opx args | _, _ => Fail end
  end.
Proof. reflexivity. Qed.

Lemma eval_mono : forall n p e v, eval n p e = Ok v -> forall m, (n <= m)%nat -> eval m p e = Ok v.
Proof. exact (EvalProofs.eval_mono opf). Qed.

Lemma evals_first x e v : evals (Cons (Atom [5]) (Cons x nilv)) e v <-> exists b, evals x e (Cons v b).
Proof.
  rewrite evals_op by reflexivity. cbn [evals_list nilv]. split.
  - intros (vs & (vx & vr & Hx & [_ ->] & ->) & Hop). rewrite opf_first in Hop.
    destruct vx as [|a b]; [discriminate|]. injection Hop as ->. exists b. exact Hx.
  - intros [b Hx]. exists (Cons (Cons v b) nilv). split; [|apply opf_first].
    exists (Cons v b), nilv. auto.
Qed.

Lemma evals_rest x e v : evals (Cons (Atom [6]) (Cons x nilv)) e v <-> exists a, evals x e (Cons a v).
Proof.
  rewrite evals_op by reflexivity. cbn [evals_list nilv]. split.
  - intros (vs & (vx & vr & Hx & [_ ->] & ->) & Hop). rewrite opf_rest in Hop.
    destruct vx as [|a b]; [discriminate|]. injection Hop as ->. exists a. exact Hx.
  - intros [a Hx]. exists (Cons (Cons a v) nilv). split; [|apply opf_rest].
    exists (Cons a v), nilv. auto.
Qed.

Lemma evals_cons_inv x y e v : evals (Cons (Atom [4]) (Cons x (Cons y nilv))) e v ->
  exists a b, v = Cons a b /\ evals x e a /\ evals y e b.
Proof.
  rewrite evals_op by reflexivity. cbn [evals_list].
  intros (vs & (a & ? & Hx & (b & ? & Hy & [_ ->] & ->) & ->) & Hop).
  rewrite opf_cons in Hop. injection Hop as <-. exists a, b. auto.
Qed.

(* the matchers answer only on the shape of their pattern: r is taken apart that far, every other shape gives None *)
Lemma match_op1_inv op r x : match_op1 op r = Some x -> r = Cons (Atom [op]) (Cons x nilv).
Proof.
  destruct r as [|[[|o [|]]|] [|y [[|]|]]]; try discriminate. cbn.
  destruct (N.eqb_spec o op) as [->|]; [|discriminate]. intros [= ->]. reflexivity.
Qed.
Lemma match_cons_inv r f s : match_cons r = Some (f, s) -> r = Cons (Atom [4]) (Cons f (Cons s nilv)).
Proof.
  destruct r as [|[[|o [|]]|] [|f' [|s' [[|]|]]]]; try discriminate. cbn.
  destruct (N.eqb_spec o 4) as [->|]; [|discriminate]. intros [= -> ->]. reflexivity.
Qed.
Lemma match_a_q_inv r s a : match_a_q r = Some (s, a) ->
  r = Cons (Atom [2]) (Cons (Cons (Atom [1]) s) (Cons a nilv)).
Proof.
  destruct r as [|[[|o [|]]|] [|[|[[|o1 [|]]|] s'] [|a' [[|]|]]]]; try discriminate. cbn.
  destruct (N.eqb_spec o 2) as [->|]; [|discriminate]. destruct (N.eqb_spec o1 1) as [->|]; [|discriminate].
  intros [= -> ->]. reflexivity.
Qed.

Lemma cons_fr_sound A e a b : evals A e (Cons a b) -> evals (cons_f A) e a /\ evals (cons_r A) e b.
Proof.
  intros H. unfold cons_f, cons_r. destruct (match_cons A) as [[f s]|] eqn:M.
  - apply match_cons_inv in M. subst A.
    apply evals_cons_inv in H as (? & ? & [= <- <-] & Hf & Hs). split; assumption.
  - split; [apply evals_first; exists b|apply evals_rest; exists a]; exact H.
Qed.

(* (f (c A B)) => A   and   (r (c A B)) => B *)
Theorem cons_optimizer_sound r e v : evals r e v -> evals (cons_optimizer r) e v.
Proof.
  intros H. unfold cons_optimizer.
  destruct (match_op1 5 r) as [x|] eqn:M5.
  - apply match_op1_inv in M5. subst r.
    (* an (f X) form is not an (r Y) form: what the rule returns computes to cons_f X *)
    apply evals_first in H as [b H]. exact (proj1 (cons_fr_sound x e v b H)).
  - destruct (match_op1 6 r) as [y|] eqn:M6; [|exact H].
    apply match_op1_inv in M6. subst r.
    apply evals_rest in H as [a H]. exact (proj2 (cons_fr_sound y e a v H)).
Qed.

(* (a (q . SEXP) 1) => SEXP *)
Theorem cons_q_a_optimizer_sound r e v : evals r e v -> evals (cons_q_a_optimizer r) e v.
Proof.
  intros H. unfold cons_q_a_optimizer.
  destruct (match_a_q r) as [[s a]|] eqn:M; [|exact H].
  destruct (is_atom1 a 1) eqn:Ia; [|exact H].
  apply match_a_q_inv in M. subst r.
  destruct a as [[|y [|? ?]]|]; try discriminate. cbn in Ia. apply N.eqb_eq in Ia. subst y.
  apply evals_a_q_inv in H as (ea & Ha & Hs). apply evals_path in Ha. injection Ha as <-. exact Hs.
Qed.

(* (q . 0) => 0   and   (a 0 . REST) => 0  *)
Theorem quote_null_optimizer_sound r e v : evals r e v -> evals (quote_null_optimizer r) e v.
Proof.
  intros H. unfold quote_null_optimizer.
  destruct r as [|[[|o [|]]|] [[|]|]]; try exact H.
  destruct (N.eqb_spec o 1) as [->|]; [|exact H].
  apply evals_quote in H. subst v. apply evals_path. reflexivity.
Qed.

Theorem apply_null_optimizer_sound r e v : evals r e v -> evals (apply_null_optimizer r) e v.
Proof.
  intros H. unfold apply_null_optimizer.
  destruct r as [|[[|o [|]]|] [|[[|]|] rest]]; try exact H.
  destruct (N.eqb_spec o 2) as [->|]; [|exact H].
  (* (a 0 . rest): when it evaluates, the value of the operand 0, which is nil, is evaluated as a program *)
  apply evals_apply in H as (vs & (v0 & vr & H0 & _ & ->) & q & e' & Eargs & Hv).
  apply evals_path in H0. injection H0 as <-.
  destruct vr as [|? [|? ?]]; try discriminate. injection Eargs as <- _.
  apply evals_path in Hv. apply evals_path. exact Hv.
Qed.
End Sound.

(* the executable operator oracle satisfies the three hypotheses (non-vacuity) *)
Lemma opf_exec_cons a b : opf_exec [4] (Cons a (Cons b nilv)) = Some (Cons a b).
Proof. reflexivity. Qed.
Lemma opf_exec_first x : opf_exec [5] (Cons x nilv) = match x with Cons a _ => Some a | Atom _ => None end.
Proof. reflexivity. Qed.
Lemma opf_exec_rest x : opf_exec [6] (Cons x nilv) = match x with Cons _ b => Some b | Atom _ => None end.
Proof. reflexivity. Qed.
