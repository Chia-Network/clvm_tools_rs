(* Soundness of the classic optimiser's path rule  (f P) => P+first , (r P) => P+rest  for path atoms P,
   with the path read as the generated switches say (Gen/Consts.v OPT_PATH_OPT_SIGNED): this is the rule in
   which D3 lived (a signed read collapsed all-ones paths). *)
From CV Require Import Base.Prelude Base.Val Base.Bytes Base.BytesProofs Gen.Consts Clvm.Path Clvm.NodePath Clvm.EvalProofs Opt.ClassicOpt Opt.ClassicOptProofs.

Lemma be_acc_app acc a b : be_acc acc (a ++ b) = be_acc (be_acc acc a) b.
Proof. revert acc; induction a as [|x r IH]; intros acc; cbn; [reflexivity|apply IH]. Qed.

Lemma be_unsigned_be_digits n : be_unsigned (be_digits n) = n.
Proof. exact (BytesProofs.be_unsigned_be_digits n). Qed.

(* the Z-valued compose_paths of node_path.rs is the N-valued one of Clvm/NodePath.v: on natural numbers
   the bit operations of Z are those of N, both being defined through positive *)
Lemma inj_land a b : Z.land (Z.of_N a) (Z.of_N b) = Z.of_N (N.land a b).
Proof. destruct a, b; reflexivity. Qed.
Lemma inj_lor a b : Z.lor (Z.of_N a) (Z.of_N b) = Z.of_N (N.lor a b).
Proof. destruct a, b; reflexivity. Qed.

(* on positives each turn of either loop is a step on the positives themselves: halving takes a constructor
   off, doubling puts xO on *)
Lemma cp_loop_ZN : forall fuel p a m,
  cp_loop fuel (Zpos p) (Zpos a) (Zpos m) =
  (Z.of_N (fst (cp_loop_n fuel (Npos p) (Npos a) (Npos m))), Z.of_N (snd (cp_loop_n fuel (Npos p) (Npos a) (Npos m)))).
Proof.
  induction fuel as [|f IH]; intros [p|p|] a m; try reflexivity; exact (IH p (a~0)%positive (m~0)%positive).
Qed.

Lemma compose_paths_ZN p q : compose_paths (Zpos p) (Zpos q) = Z.of_N (compose_paths_n (Npos p) (Npos q)).
Proof.
  unfold compose_paths, compose_paths_n.
  replace (S (Z.to_nat (Z.log2 (Zpos p)))) with (N.to_nat (N.size (Npos p)))
    by (destruct p; cbn; rewrite ?Pos2Nat.inj_succ; reflexivity).
  rewrite cp_loop_ZN, cp_loop_spec by apply plen_size. cbn [fst snd].
  rewrite N.shiftl_1_l. set (k := N.of_nat (plen p)).
  replace (Z.of_N (2 ^ k) - 1)%Z with (Z.of_N (2 ^ k - 1)) by (pose proof (N.pow_nonzero 2 k); lia).
  change (Zpos p) with (Z.of_N (Npos p)). rewrite inj_land, inj_lor. reflexivity.
Qed.

Lemma path_add_traverse b s e a d : traverse b e = Ok (Cons a d) ->
  traverse (nodepath_as_path (nodepath_add (nodepath_new (read_path_opt b)) (Zpos s))) e = traverse_pos s (Cons a d).
Proof.
  unfold traverse, read_path_opt. change OPT_PATH_OPT_SIGNED with false. cbv iota.
  destruct (be_unsigned b) as [|p]; [discriminate|]. cbn [traverse_N Z.of_N]. intros H.
  unfold nodepath_add, nodepath_new, nodepath_as_path, bigint_to_bytes_unsigned.
  change (Z.pos p <? 0)%Z with false. cbv iota.
  rewrite compose_paths_ZN, compose_paths_spec. cbn [Z.of_N]. change (Z.pos (papp p s) <? 0)%Z with false. cbv iota.
  cbn [Z.to_N]. rewrite be_unsigned_be_digits. cbn [traverse_N]. rewrite traverse_papp, H. reflexivity.
Qed.

Section PathRule.
Variable opf : bytes -> val -> option val.
Hypothesis opf_first : forall x, opf [5] (Cons x nilv) = match x with Cons a _ => Some a | Atom _ => None end.
Hypothesis opf_rest : forall x, opf [6] (Cons x nilv) = match x with Cons _ b => Some b | Atom _ => None end.
Notation evals := (evals opf).

(* (f P) / (r P) with P a path atom: the composed path selects the same value whenever the original returns one *)
Theorem path_optimizer_sound r e v : evals r e v -> evals (path_optimizer r) e v.
Proof.
  intros H. unfold path_optimizer.
  destruct (match_op1 5 r) as [x|] eqn:M5.
  - apply match_op1_inv in M5. subst r.
    (* an (f X) form is not an (r Y) form: with X not an atom, what is left computes to the form itself *)
    destruct x as [b|? ?]; [|exact H].
    apply (evals_first opf opf_first) in H as [d H].
    apply evals_path in H. apply evals_path. rewrite (path_add_traverse b 2 e v d H). reflexivity.
  - destruct (match_op1 6 r) as [[b|? ?]|] eqn:M6; try exact H.
    apply match_op1_inv in M6. subst r. apply (evals_rest opf opf_rest) in H as [a H].
    apply evals_path in H. apply evals_path. rewrite (path_add_traverse b 3 e a v H). reflexivity.
Qed.
End PathRule.
