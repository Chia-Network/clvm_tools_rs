(* Soundness of sub_args, the substitution behind the optimiser's variable-change rule
   (a (q . SEXP) ARGS) => SEXP with every environment path replaced by the matching selection from ARGS:
   whenever ARGS evaluates to ea and SEXP evaluates in ea to v, the substituted expression evaluates to v in the
   original environment. The path atoms are read as the generated switches say (Gen/Consts.v): the rule in which
   D2 (signed read, zero path = whole arguments) and D13b/D16 (pair heads) lived. *)
From CV Require Import Base.Prelude Base.Val Base.Bytes Gen.Consts Clvm.Path Clvm.Eval Clvm.EvalProofs Opt.ClassicOpt Opt.ClassicOptProofs.

(* the nested fixpoint of sub_args as it stands there, the arguments a fixed through the recursion: the
   operands substituted one by one, None if the list is improper *)
Definition sub_list (a : val) : val -> option val :=
  fix sl (t : val) : option val :=
    match t with
    | Atom [] => Some nilv
    | Atom _ => None
    | Cons x r => match sl r with Some t' => Some (Cons (sub_args x a) t') | None => None end
    end.

Lemma sub_args_atom_head op rest a : bytes_eqb op [1] = false ->
  sub_args (Cons (Atom op) rest) a =
  match sub_list a rest with
  | Some tail => Cons (Atom op) tail
  | None => path_from_args (Cons (Atom op) rest) a
  end.
Proof.
  (* sub_args matches on the literal [1]: taken apart down to the positive to meet it *)
  intros H. destruct op as [|[|[p|p|]] [|o2 r2]]; try reflexivity. discriminate H.
Qed.

Lemma sub_args_quote rest a : sub_args (Cons (Atom [1]) rest) a = Cons (Atom [1]) rest.
Proof. reflexivity. Qed.

Lemma sub_args_pair_head x t rest a : sub_args (Cons (Cons x t) rest) a = Cons (Cons x t) rest.
Proof. cbn [sub_args]. change OPT_PAIR_HEAD_OPAQUE with true. reflexivity. Qed.

Section SubArgs.
Variable opf : bytes -> val -> option val.
Hypothesis opf_cons : forall a b, opf [4] (Cons a (Cons b nilv)) = Some (Cons a b).
Hypothesis opf_first : forall x, opf [5] (Cons x nilv) = match x with Cons a _ => Some a | Atom _ => None end.
Hypothesis opf_rest : forall x, opf [6] (Cons x nilv) = match x with Cons _ b => Some b | Atom _ => None end.
Notation eval := (eval opf).
Notation evals := (evals opf).
Notation evals_list := (evals_list opf).

Lemma path_from_pos_sound : forall p A e ea v,
  evals A e ea -> traverse_pos p ea = Ok v -> evals (path_from_pos p A) e v.
Proof.
  induction p as [q IH|q IH|]; intros A e ea v HA Ht; cbn [path_from_pos traverse_pos] in *.
  - destruct ea as [|a b]; [discriminate|].
    exact (IH _ e b v (proj2 (cons_fr_sound opf opf_cons opf_first opf_rest A e a b HA)) Ht).
  - destruct ea as [|a b]; [discriminate|].
    exact (IH _ e a v (proj1 (cons_fr_sound opf opf_cons opf_first opf_rest A e a b HA)) Ht).
  - injection Ht as <-. exact HA.
Qed.

Lemma path_from_args_atom_sound b A e ea v :
  evals A e ea -> traverse b ea = Ok v -> evals (path_from_args (Atom b) A) e v.
Proof.
  intros HA Ht. unfold path_from_args, read_path_args. change OPT_PATH_ARGS_SIGNED with false. cbv iota.
  unfold traverse in Ht. destruct (be_unsigned b) as [|p] eqn:Eb; cbn [Z.of_N traverse_N] in *.
  - change OPT_PATH_ARGS_ZERO_WHOLE with false. cbv iota. apply evals_path. unfold traverse. rewrite Eb. exact Ht.
  - exact (path_from_pos_sound p A e ea v HA Ht).
Qed.

(* sub_args recurses through the operands of operator calls only, and so does the proof: an expression
   keeps its value, an operand list its values *)
Lemma sub_args_evals a e ea : evals a e ea -> forall s,
  (forall v, evals s ea v -> evals (sub_args s a) e v) /\
  (forall vs, evals_list s ea vs -> exists tail, sub_list a s = Some tail /\ evals_list tail e vs).
Proof.
  intros Ha. induction s as [b|x [IHx _] r [_ IHr]]; split.
  - intros v H. apply evals_path in H. exact (path_from_args_atom_sound b a e ea v Ha H).
  - intros vs [-> ->]. exists nilv. split; [reflexivity|split; reflexivity].
  - intros v H. destruct x as [op|x t].
    + destruct (bytes_eqb op [1]) eqn:Eq.
      * (* quoted data is left alone and does not look at the environment *)
        apply bytes_eqb_eq in Eq. subst op. rewrite sub_args_quote.
        apply evals_quote. apply evals_quote in H. exact H.
      * rewrite sub_args_atom_head by exact Eq.
        apply evals_call in H as (vs & Hvs & Hop); [|exact Eq].
        destruct (IHr vs Hvs) as (tail & -> & Ht).
        apply evals_call; [exact Eq|]. exists vs. split; [exact Ht|exact Hop].
    + rewrite sub_args_pair_head. exact (evals_pair_head opf x t r ea e v H).
  - intros vs (v & vr & Hx & Hr & ->). cbn [sub_list].
    destruct (IHr vr Hr) as (tail & -> & Ht).
    exists (Cons (sub_args x a) tail). split; [reflexivity|].
    exists v, vr. split; [apply IHx; exact Hx|]. split; [exact Ht|reflexivity].
Qed.

Theorem sub_args_sound : forall n s ea v, eval n s ea = Ok v ->
  forall a e na, eval na a e = Ok ea -> exists m, eval m (sub_args s a) e = Ok v.
Proof.
  intros n s ea v H a e na Ha.
  apply (proj1 (sub_args_evals a e ea (ex_intro _ na Ha) s)). exists n. exact H.
Qed.
End SubArgs.
