(* Soundness of the whole classic optimiser (the driver loop optimize_sexp_ with its eight rules), for the model
   of Opt/ClassicOpt.v: whenever optimize returns a program, that program returns every value the original
   returns. Built from the rule lemmas of ClassicOptProofs / PathOptProofs / SubArgsProofs. *)
From CV Require Import Base.Prelude Base.Val Gen.Consts Clvm.Eval Clvm.Ops Clvm.EvalProofs Opt.ClassicOpt Opt.ClassicOptProofs Opt.PathOptProofs Opt.SubArgsProofs.

Section Sound.
Variable opf : bytes -> val -> option val.
Hypothesis opf_cons : forall a b, opf [4] (Cons a (Cons b nilv)) = Some (Cons a b).
Hypothesis opf_first : forall x, opf [5] (Cons x nilv) = match x with Cons a _ => Some a | Atom _ => None end.
Hypothesis opf_rest : forall x, opf [6] (Cons x nilv) = match x with Cons _ b => Some b | Atom _ => None end.
Notation eval := (eval opf).
Notation evals := (evals opf).
Notation evals_list := (evals_list opf).

Definition sound (a b : val) : Prop := forall e n v, eval n a e = Ok v -> exists m, eval m b e = Ok v.

Lemma sound_evals a b : sound a b <-> forall e v, evals a e v -> evals b e v.
Proof.
  split.
  - intros H e v [n Hn]. exact (H e n v Hn).
  - intros H e n v Hn. apply H. exists n. exact Hn.
Qed.

Lemma sound_refl a : sound a a.
Proof. intros e n v H. exists n. exact H. Qed.
Lemma sound_trans a b c : sound a b -> sound b c -> sound a c.
Proof. intros H1 H2 e n v H. destruct (H1 e n v H) as [m Hm]. exact (H2 e m v Hm). Qed.

Fixpoint const_tail (t : val) : bool :=
  match t with
  | Cons l r' => seems_constant l && const_tail r'
  | Atom b => match b with [] => true | _ => false end
  end.

Lemma seems_constant_call op r :
  seems_constant (Cons (Atom op) r) = bytes_eqb op [1] || negb (bytes_eqb op [8]) && const_tail r.
Proof.
  (* const_tail is the inner fixpoint of seems_constant as it stands there. op is [1], [8] or neither:
     decided by the bits of its first byte and whether a second byte follows *)
  destruct op as [|[|[p|[p|[p|[p|p|]|]|]|]] [|o2 t]]; reflexivity.
Qed.

Lemma const_tail_In l x : const_tail l = true -> In x (args_list l) -> seems_constant x = true.
Proof.
  induction l as [b|y _ r IHr]; cbn [const_tail args_list In]; [tauto|].
  intros H [<-|Hx]; apply andb_true_iff in H; [apply H|apply IHr; tauto].
Qed.

Lemma const_indep : forall n s e e' v, seems_constant s = true -> eval n s e = Ok v -> eval n s e' = Ok v.
Proof.
  induction n as [|n IH]; intros s e e' v Hc H; [discriminate|].
  destruct s as [b|[op|x t] r].
  - cbn in Hc. destruct b; [exact H|discriminate].
  - rewrite eval_S in H |- *. cbv zeta in *.
    destruct (bytes_eqb op quote_atom) eqn:Eq; [exact H|].
    rewrite seems_constant_call in Hc. change quote_atom with [1] in Eq. rewrite Eq in Hc.
    apply andb_true_iff in Hc as [_ Hct].
    (* the operands are constant, the operator is applied to the same values *)
    destruct (eval_list (fun x => eval n x e) r) as [vs| |] eqn:El; try discriminate.
    rewrite (eval_list_impl _ (fun x => eval n x e') r (fun x vx Hx => IH x e e' vx (const_tail_In r x Hct Hx)) vs El).
    exact H.
  - exact H.
Qed.

Lemma constant_optimizer_sound f r r1 : constant_optimizer opf f r = Done r1 -> sound r r1.
Proof.
  unfold constant_optimizer. intros H.
  assert (Hgen : (if seems_constant r && non_nil r
                  then match eval f r nilv with Ok v => Done (quote v) | Fail => Failed | Oof => OptOof end
                  else Done r) = Done r1 -> sound r r1).
  { destruct (seems_constant r && non_nil r) eqn:Ec; [|intros [= <-]; apply sound_refl].
    apply andb_true_iff in Ec as [Hc _].
    destruct (eval f r nilv) as [v0| |] eqn:Ev; try discriminate. intros [= <-].
    intros e n v Hv. rewrite (eval_det opf _ _ _ _ _ _ (const_indep n r e nilv v Hc Hv) Ev).
    exists 1%nat. reflexivity. }
  (* constant_optimizer matches on the literal head [1]: taken apart down to the positive to meet it *)
  destruct r as [b|[[|[|[p|p|]] [|o2 hb'']]|h1 h2] t]; try exact (Hgen H).
  injection H as <-. apply sound_refl.
Qed.

Lemma evals_list_congr : forall xs xs', Forall2 sound xs xs' ->
  forall e vs, evals_list (of_list xs) e vs -> evals_list (of_list xs') e vs.
Proof.
  induction 1 as [|x x' r r' Hx Hr IH]; intros e vs; cbn [of_list evals_list]; [auto|].
  intros (v & vr & Hv & Hvr & ->). exists v, vr. rewrite sound_evals in Hx. auto.
Qed.

Lemma call_congr op xs xs' : bytes_eqb op quote_atom = false -> Forall2 sound xs xs' ->
  sound (Cons (Atom op) (of_list xs)) (Cons (Atom op) (of_list xs')).
Proof.
  intros Hq HF. apply sound_evals. intros e v H.
  apply evals_call in H as (vs & Hvs & Hop); [|exact Hq].
  apply evals_call; [exact Hq|]. exists vs. split; [exact (evals_list_congr xs xs' HF e vs Hvs)|exact Hop].
Qed.

Lemma opt_map_Forall2 (f : val -> ores) (P : val -> val -> Prop) :
  (forall x x', f x = Done x' -> P x x') ->
  forall l l', opt_map f l = Some (Some l') -> Forall2 P l l'.
Proof.
  intros Hf. induction l as [|x r IH]; intros l' H; cbn [opt_map] in H.
  - inversion H. constructor.
  - destruct (f x) as [x'| |] eqn:Ex; try discriminate.
    destruct (opt_map f r) as [[r'|]|] eqn:Er; try discriminate. inversion H; subst.
    constructor; [apply Hf; exact Ex|apply IH; reflexivity].
Qed.

Lemma optimize_atom f b x : optimize opf f (Atom b) = Done x -> x = Atom b.
Proof. destruct f; [discriminate|]. intros [= <-]. reflexivity. Qed.

Lemma opt_map_call_sound f op xs items' : bytes_eqb op quote_atom = false ->
  (forall x x', optimize opf f x = Done x' -> sound x x') ->
  opt_map (optimize opf f) (Atom op :: xs) = Some (Some items') ->
  sound (Cons (Atom op) (of_list xs)) (of_list items').
Proof.
  intros Hq Hf H. cbn [opt_map] in H.
  destruct (optimize opf f (Atom op)) as [hd| |] eqn:Ehd; try discriminate.
  apply optimize_atom in Ehd. subst hd.
  destruct (opt_map (optimize opf f) xs) as [[xs'|]|] eqn:Exs; try discriminate. injection H as <-.
  apply call_congr; [exact Hq|]. exact (opt_map_Forall2 _ sound Hf xs xs' Exs).
Qed.

Theorem optimize_sound : forall fuel r r', optimize opf fuel r = Done r' -> sound r r'.
Proof.
  induction fuel as [|f IH]; intros r r' H; [discriminate|].
  cbn [optimize] in H. destruct r as [b|h t]; [inversion H; apply sound_refl|].
  set (r := Cons h t) in *.
  (* a rule result that differs from r is optimised again *)
  assert (Hstep : forall res, sound r res -> optimize opf f res = Done r' -> sound r r').
  { intros res Hs Ho. exact (sound_trans _ _ _ Hs (IH _ _ Ho)). }
  assert (Hrule : forall res, (forall e v, evals r e v -> evals res e v) -> optimize opf f res = Done r' -> sound r r').
  { intros res Hs. apply Hstep. apply sound_evals. exact Hs. }
  destruct (val_eqb r (cons_optimizer r));
    [|exact (Hrule _ (cons_optimizer_sound opf opf_cons opf_first opf_rest r) H)].
  destruct (constant_optimizer opf f r) as [r1| |] eqn:Ec; try discriminate.
  destruct (val_eqb r r1); [|exact (Hstep r1 (constant_optimizer_sound f r r1 Ec) H)].
  destruct (val_eqb r (cons_q_a_optimizer r)); [|exact (Hrule _ (cons_q_a_optimizer_sound opf r) H)].
  (* var_change_optimizer_cons_eval *)
  match type of H with (match ?vc with _ => _ end) = _ => destruct vc as [r2| |] eqn:Evc; try discriminate end.
  assert (Hs2 : sound r r2).
  { destruct (match_a_q r) as [[call args]|] eqn:Ma; [|inversion Evc; apply sound_refl].
    match type of Evc with (if ?c then _ else _) = _ => destruct c; [inversion Evc; apply sound_refl|] end.
    assert (Hnew : sound r (sub_args call args)).
    { apply sound_evals. intros e v Hv. rewrite (match_a_q_inv r call args Ma) in Hv.
      apply evals_a_q_inv in Hv as (ea & Ha & Hc).
      exact (proj1 (sub_args_evals opf opf_cons opf_first opf_rest args e ea Ha call) v Hc). }
    destruct (seems_constant (sub_args call args)) eqn:Esc; [exact (sound_trans _ _ _ Hnew (IH _ _ Evc))|].
    match type of Evc with (if ?c then _ else _) = _ => destruct c eqn:Eph; [inversion Evc; apply sound_refl|] end.
    destruct (to_list (sub_args call args)) as [operands|] eqn:Etl; [|inversion Evc; apply sound_refl].
    destruct (opt_map (optimize opf f) operands) as [[opt_operands|]|] eqn:Eom; try discriminate.
    destruct (existsb non_constant_operand opt_operands); inversion Evc; subst r2; [apply sound_refl|].
    apply (sound_trans _ _ _ Hnew).
    apply to_list_inv in Etl. rewrite Etl in *.
    destruct operands as [|[op|hx ht] xs].
    - injection Eom as <-. apply sound_refl.
    - apply (opt_map_call_sound f op xs opt_operands); [|exact IH|exact Eom].
      (* not the quote atom: otherwise the form would have been a constant *)
      destruct (bytes_eqb op quote_atom) eqn:Eq; [|reflexivity].
      apply bytes_eqb_eq in Eq. subst op. discriminate Esc.
    - (* a pair in head position: excluded by the guard *)
      discriminate Eph. }
  destruct (val_eqb r r2); [|exact (Hstep r2 Hs2 H)].
  (* children_optimizer *)
  match type of H with (match ?ch with _ => _ end) = _ => destruct ch as [r3| |] eqn:Ech; try discriminate end.
  assert (Hs3 : sound r r3).
  { destruct (to_list r) as [items|] eqn:Etl; [|inversion Ech; apply sound_refl].
    apply to_list_inv in Etl.
    destruct items as [|[op|hx ht] xs]; [inversion Ech; apply sound_refl| |].
    - destruct (bytes_eqb op quote_atom) eqn:Eq.
      + apply bytes_eqb_eq in Eq. subst op. injection Ech as <-. apply sound_refl.
      + assert (Hch : match opt_map (optimize opf f) (Atom op :: xs) with
                      | None => OptOof
                      | Some None => Failed
                      | Some (Some items') => Done (of_list items')
                      end = Done r3).
        { (* children_optimizer too matches on the literal [1], which Eq excludes *)
          destruct op as [|[|[p|p|]] [|o2 hb]]; try exact Ech. discriminate Eq. }
        destruct (opt_map (optimize opf f) (Atom op :: xs)) as [[items'|]|] eqn:Eom; try discriminate.
        injection Hch as <-. rewrite Etl. exact (opt_map_call_sound f op xs items' Eq IH Eom).
    - change OPT_PAIR_HEAD_OPAQUE with true in Ech. inversion Ech. apply sound_refl. }
  destruct (val_eqb r r3); [|exact (Hstep r3 Hs3 H)].
  destruct (val_eqb r (path_optimizer r)); [|exact (Hrule _ (path_optimizer_sound opf opf_first opf_rest r) H)].
  destruct (val_eqb r (quote_null_optimizer r)); [|exact (Hrule _ (quote_null_optimizer_sound opf r) H)].
  destruct (val_eqb r (apply_null_optimizer r)); [|exact (Hrule _ (apply_null_optimizer_sound opf r) H)].
  inversion H. apply sound_refl.
Qed.
End Sound.
